(* P11/PrivacyFacts.v — private objects are unreachable unless the normal user is logged in (C01),
   token objects need an R/W session: what a refusal of the access matrix means for each call that takes an object
   handle ([access_refused]) or a template ([create_refused]).  All statements hold in EVERY state of the model, so
   they cover handles obtained while logged in and used afterwards, cross-token use, and any history. *)
From Coq Require Import List NArith.
From SoftHSM Require Import Gen_Const Defs Core AccessFacts.
Import ListNotations.
Local Open Scope N_scope.

Definition not_user (s : state) (x : session) : Prop := tok_login s (s_tok x) <> LUser.

Lemma not_user_read s x tok : not_user s x -> have_read (sess_state s x) tok true <> CKR_OK.
Proof.
  intros Hn H. apply haveRead_private_needs_user in H. apply sess_state_user in H. exact (Hn H).
Qed.
Lemma not_user_write s x tok : not_user s x -> have_write (sess_state s x) tok true <> CKR_OK.
Proof.
  intros Hn H. apply haveWrite_private_needs_user in H. apply sess_state_user in H. exact (Hn H).
Qed.

Definition no_data (l : list (N * option N * option bytes)) : Prop :=
  forall e, In e l -> snd (fst e) = None /\ snd e = None.

Definition ro_session (s : state) (x : session) : Prop := s_rw x = false /\ tok_login s (s_tok x) <> LSO.

Lemma ro_session_write s x priv : ro_session s x -> have_write (sess_state s x) true priv <> CKR_OK.
Proof.
  intros [Hr Hn] H. apply haveWrite_token_needs_rw in H. apply sess_state_rw in H. destruct H; congruence.
Qed.

(* every entry point that takes an object handle consults the access matrix before anything else (the keyed
   operations after the test for an active operation), and a refusal is the call's answer: nothing changes,
   C_GetAttributeValue writes nothing *)
Lemma access_refused (s : state) (h oh : N) (x : session) e loc ob :
  st_init s = true -> get_session s h = Some x -> get_object s oh = Some (e, loc, ob) ->
  let rd := have_read (sess_state s x) (o_token ob) (o_private ob) in
  let wr := have_write (sess_state s x) (o_token ob) (o_private ob) in
  (rd <> CKR_OK ->
   (forall tm, step s (OCopy h oh tm) = (s, RRv rd)) /\
   (forall q, step s (OGetAttr h oh q) = (s, RAttrs CKR_GENERAL_ERROR (map (fun p => (fst p, None, None)) q))) /\
   (forall kind, step s (OUseInit kind h oh) = (s, RRv (if s_op x =? SESSION_OP_NONE then rd else CKR_OPERATION_ACTIVE)))) /\
  (wr <> CKR_OK -> (forall tm, step s (OSetAttr h oh tm) = (s, RRv wr)) /\ step s (ODestroy h oh) = (s, RRv wr)).
Proof.
  intros Hi Hs Ho rd wr. unfold step. rewrite Hi, Hs, Ho. fold rd wr. cbn [negb].
  split; intros H; apply N.eqb_neq in H; rewrite H; repeat split.
  intros kind. destruct (s_op x =? SESSION_OP_NONE); reflexivity.
Qed.

Lemma create_refused (s : state) (h : N) (x : session) (tm : template) :
  st_init s = true -> get_session s h = Some x ->
  have_write (sess_state s x) (negb (tmpl_bool CKA_TOKEN tm 0 =? 0)) (negb (tmpl_bool CKA_PRIVATE tm 1 =? 0)) <> CKR_OK ->
  fst (step s (OCreate h tm)) = s /\ (forall hh, snd (step s (OCreate h tm)) <> RHandle hh).
Proof.
  intros Hi Hs Hw. apply N.eqb_neq in Hw. unfold step. rewrite Hi, Hs. cbn [negb].
  (* each of the three template checks, and then the matrix, ends the call *)
  destruct (negb (tmpl_wellformed tm)); [|destruct (tmpl_ulong CKA_CLASS tm) as [n|]; [destruct (negb (n =? CKO_DATA)); [|cbv zeta; rewrite Hw]|]].
  all: cbn; split; [reflexivity|discriminate].
Qed.

(* non-vacuity: a reachable state with a live handle (2) to a private token object and an R/O session (3); the user is
   still logged in, so that session is not a public one *)
Definition demo_private_ops : list op :=
  [OInit; OInitToken TFree (Some [49;50;51;52]) 0; OOpen (TTok 0) 6; OLogin 1 CKU_SO (Some [49;50;51;52]);
   OInitPin 1 (Some [53;54;55;56]); OLogout 1; OLogin 1 CKU_USER (Some [53;54;55;56]);
   OCreate 1 [mkT CKA_CLASS (Some [0;0;0;0;0;0;0;0]) 8; mkT CKA_TOKEN (Some [1]) 1; mkT CKA_LABEL (Some [65]) 1];
   OOpen (TTok 0) 4].
Example demo_private_state :
  let s := exec init_state demo_private_ops in
  exists x e loc ob, get_session s 3 = Some x /\ get_object s 2 = Some (e, loc, ob) /\ o_private ob = true /\ st_init s = true.
Proof. vm_compute. repeat eexists. Qed.
