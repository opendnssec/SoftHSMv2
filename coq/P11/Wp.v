(* P11/Wp.v — walking a regenerated function along its own structure.

   The translator prints a C++ function as nested `if`s in continuation-passing style: the code after a statement is a
   local function `let k := fun ... => ... in`, called wherever control reaches that point, and more than once where
   branches join (after a `switch`, after an `if` without `else`).  Normalising such a term copies every continuation
   to each of its call sites, and a case analysis of the normal form visits the code after a join once per way of
   reaching it.  Here a property `Q` of the result is instead pushed through the term as it stands: one rule for a
   test, one for a local definition, and at a join the choice between substituting the continuation (what lies on the
   way to it stays known) and proving an invariant of it once (`wp_cut`). *)
From Coq Require Import NArith Bool.
Local Open Scope N_scope.

(* `Q r`, wrapped: were it a definition, applying a rule would let the unifier unfold it and solve `?Q (if ..)` by
   higher-order guesses; with the wrapper a rule matches the result term and nothing else. *)
Variant wp {A} (r : A) (Q : A -> Prop) : Prop := wp_intro (_ : Q r).

Lemma wp_elim {A} (r : A) Q : wp r Q -> Q r.
Proof. intros []. assumption. Qed.

Lemma wp_mono {A} (r : A) (Q' Q : A -> Prop) : (forall x, Q' x -> Q x) -> wp r Q' -> wp r Q.
Proof. intros H []. constructor. auto. Qed.

Lemma wp_if {A} (c : bool) (a b : A) Q : (c = true -> wp a Q) -> (c = false -> wp b Q) -> wp (if c then a else b) Q.
Proof. destruct c; auto. Qed.

Lemma wp_cut {B C} (F : B) (body : B -> C) (I : B -> Prop) Q :
  I F -> (forall k, I k -> wp (body k) Q) -> wp (let k := F in body k) Q.
Proof. intros H1 H2. exact (H2 F H1). Qed.

(* `r = s -> P`, read as a property of the result r; unfold r afterwards with `cbv beta delta [...]`, never zeta *)
Ltac wp_reach :=
  lazymatch goal with
  | |- fst ?r = ?s -> ?P => refine (wp_elim r (fun x => fst x = s -> P) _)    (* the code of a (code, effects) pair *)
  | |- ?r = ?s -> ?P => refine (wp_elim r (fun x => x = s -> P) _)
  end.

(* the head `let`: substituted (each call of a continuation becomes its body) ... *)
Ltac wp_inline :=
  lazymatch goal with |- wp (let x := ?v in @?f x) ?Q => let b := eval cbv beta in (f v) in change (wp b Q) end.
(* ... or replaced by a variable of which only the invariant I is known, once I is proved of the continuation.  Two
   goals: first I of the continuation itself, then the rest with the continuation a variable k and `Ik : I k` in the
   context - a call of k on the way is closed with Ik (`auto` does) *)
Tactic Notation "wp_cut" uconstr(I) :=
  lazymatch goal with
  | |- wp (let x := ?v in @?f x) ?Q =>
      refine (wp_cut v f I Q _ _); [ | let k := fresh x in let H := fresh "I" k in intros k H]; cbv beta
  end.

(* a join where nothing on the ways into it matters: whatever values it is given, it has the property of the whole;
   `always k T Q` is that invariant for a continuation k of type T: forall arguments, wp (k ..) Q.  Goals as for wp_cut,
   the arguments of the first introduced. *)
Ltac always k T Q :=
  lazymatch T with
  | ?A -> ?T' => let a := fresh "a" in constr:(forall a : A, ltac:(let t := always constr:(k a) T' Q in exact t))
  | _ => constr:(wp k Q)
  end.
Ltac wp_join :=
  lazymatch goal with
  | |- wp (let _ := ?v in _) ?Q =>
      let T := type of v in
      lazymatch T with _ -> _ => idtac end;
      let I := constr:(fun k : T => ltac:(let t := always k T Q in exact t)) in wp_cut I; [intros | ]
  end.

(* One step: a test (its outcome goes to the context; a side that computation rules out is dropped), a local value or
   a continuation that takes no data.  Every generated continuation ends with one argument that carries no choice (a
   unit, or the list of effects so far), so `_ -> R` is a continuation without data and `_ -> _ -> _` one that takes
   data.  That is where branches that assigned different values join: there the proof says what to do. *)
Ltac wp_step :=
  lazymatch goal with
  | |- wp (if true then ?a else _) ?Q => change (wp a Q)
  | |- wp (if false then _ else ?a) ?Q => change (wp a Q)
  | |- wp (if _ then _ else _) _ => apply wp_if; (let H := fresh in intros H; try discriminate H)
  | |- wp (let _ := ?v in _) _ => lazymatch type of v with _ -> _ -> _ => fail | _ => wp_inline end
  end.

(* Where the walk arrives, the tests passed stand in the context as boolean equations.  Each lemma says what one form
   of test means; `guards` takes a conjunction of guards apart and finds, for each, the test that gives it. *)
Lemma g_ne (x y : N) : (x =? y) = false -> x <> y.
Proof. apply N.eqb_neq. Qed.
Lemma g_ne_negb (x y : N) : negb (x =? y) = true -> x <> y.
Proof. intros H. apply N.eqb_neq, negb_true_iff, H. Qed.
Lemma g_eq (x y : N) : negb (x =? y) = false -> x = y.
Proof. intros H. apply N.eqb_eq, negb_false_iff, H. Qed.
Lemma g_set (b : bool) : Bool.eqb b false = false -> b = true.
Proof. destruct b; [reflexivity|discriminate]. Qed.
Lemma g_imp (a b : bool) : a && Bool.eqb b false = false -> a = true -> b = true.
Proof. destruct a, b; auto. Qed.
Lemma g_mech (m c x v : N) : (m =? c) && negb (x =? v) = false -> m = c -> x = v.
Proof. intros H ->. rewrite N.eqb_refl in H. apply g_eq, H. Qed.
Lemma g_mech_l (m c d x v : N) : ((m =? c) || (m =? d)) && negb (x =? v) = false -> m = c -> x = v.
Proof. intros H ->. rewrite N.eqb_refl in H. apply g_eq, H. Qed.
Lemma g_mech_r (m c d x v : N) : ((m =? c) || (m =? d)) && negb (x =? v) = false -> m = d -> x = v.
Proof. intros H ->. rewrite N.eqb_refl, orb_true_r in H. apply g_eq, H. Qed.
Create HintDb guards discriminated.
#[global] Hint Resolve g_ne g_ne_negb g_eq g_set g_imp g_mech g_mech_l g_mech_r : guards.

(* the walk has arrived at the result the statement names: of `wp r (fun x => x = s -> G)` the guards G are left
   (that r is s is not needed to read them off the context) *)
Ltac reached := constructor; intros _.
Ltac guards := repeat first [intros [?|?] | lazymatch goal with |- _ -> _ => intro end | split]; eauto 3 with guards nocore.
