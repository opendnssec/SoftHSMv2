(* P11/AttrFacts.v — the attribute policy engine, proved over the REGENERATED translations of
   P11Attribute::update / retrieve, the one-way and history updaters (gen/Gen_Pure.v) and the
   class -> attribute table of P11Objects.cpp (gen/Gen_Table.v).  (C02, C08) *)
From Coq Require Import List NArith Bool String.
From SoftHSM Require Import Gen_Const Gen_Pure Gen_Table Wp.
Import ListNotations.
Local Open Scope N_scope.

Definition LEN_TAG : N := 18446744073709551614.      (* 2^64-2: the translator's tag of the effect "*pulValueLen = v" *)
Definition has (checks ck : N) : bool := N.land checks ck =? ck.

(* C02: retrieve refuses guarded attributes of sensitive / unextractable keys, before anything else *)
Theorem retrieve_guard :
  forall (isExtractable isSensitive : bool) (exists_ : N -> bool) (getAttribute : N -> N)
         (checks osobject size type : N) (rest : N * list (N * N)) (token : N) (isPrivate : bool) (pValue pulValueLen : N),
  osobject <> 0 -> pulValueLen <> 0 ->
  has checks ck7 = true -> (isSensitive = true \/ isExtractable = false) ->
  gen_P11Attribute__retrieve isExtractable isSensitive exists_ getAttribute checks osobject size type rest token isPrivate pValue pulValueLen
  = (CKR_ATTRIBUTE_SENSITIVE, [(LEN_TAG, CK_UNAVAILABLE_INFORMATION)]).
Proof.
  intros ie sn ex ga checks oo size ty rest token ip pv pl Ho Hp Hc Hs.
  unfold gen_P11Attribute__retrieve, has, ck7 in *.
  apply N.eqb_neq in Ho. apply N.eqb_neq in Hp. rewrite Ho, Hp. cbn [negb].
  rewrite Hc.
  destruct Hs as [Hs | Hs]; subst; try destruct sn; try destruct ie; cbn; reflexivity.
Qed.

(* everything else (existence check, decryption, copying into the caller's buffer) happens only after it *)
Theorem retrieve_unguarded_continues :
  forall (isExtractable isSensitive : bool) (exists_ : N -> bool) (getAttribute : N -> N)
         (checks osobject size type : N) (rest : N * list (N * N)) (token : N) (isPrivate : bool) (pValue pulValueLen : N),
  osobject <> 0 -> pulValueLen <> 0 -> exists_ type = true ->
  (has checks ck7 = false \/ (isSensitive = false /\ isExtractable = true)) ->
  gen_P11Attribute__retrieve isExtractable isSensitive exists_ getAttribute checks osobject size type rest token isPrivate pValue pulValueLen = rest.
Proof.
  intros ie sn ex ga checks oo size ty rest token ip pv pl Ho Hp He Hs.
  unfold gen_P11Attribute__retrieve, has, ck7 in *.
  apply N.eqb_neq in Ho. apply N.eqb_neq in Hp. rewrite Ho, Hp, He. cbn [negb].
  destruct Hs as [Hc | [-> ->]]; [rewrite Hc|]; cbn; [reflexivity|]. rewrite andb_false_r. reflexivity.
Qed.

(* the operations for which the protection flags are one-way (C02_*_one_way): C_SetAttributeValue and C_CopyObject *)
Definition is_set_or_copy (op : N) : bool := (op =? OBJECT_OP_SET) || (op =? OBJECT_OP_COPY).

(* C08: CKA_TRUSTED can be set true only by the SO *)
Theorem trusted_only_so (v ty : N) (so : bool) (token pv len : N) (w : list (N * N)) :
  gen_P11AttrTrusted__updateAttr v ty so token pv len = (CKR_OK, w) -> In (ty, 1) w -> so = true.
Proof.
  unfold gen_P11AttrTrusted__updateAttr. cbv [CKR_OK].
  destruct (negb (len =? 1)); [discriminate|]. destruct (v =? 0).
  - intros H Hin. inversion H; subst. destruct Hin as [Hin|[]]. inversion Hin.
  - destruct so; [reflexivity|]. cbn. discriminate.
Qed.

Theorem trusted_refused_without_so (v ty token pv len : N) :
  v <> 0 -> len = 1 -> gen_P11AttrTrusted__updateAttr v ty false token pv len = (CKR_ATTRIBUTE_READ_ONLY, []).
Proof.
  intros Hv ->. unfold gen_P11AttrTrusted__updateAttr. apply N.eqb_neq in Hv. rewrite Hv. reflexivity.
Qed.

(* C08.  The codes P11Attribute::update answers itself *)
Definition is_error (rv : N) : Prop :=
  rv = CKR_GENERAL_ERROR \/ rv = CKR_ATTRIBUTE_VALUE_INVALID \/ rv = CKR_ATTRIBUTE_READ_ONLY.

Section Update.
  Variables (isModifiable isTrusted : bool) (getul : N -> N -> N) (checks osobject size : N)
            (updateAttr : N -> bool -> N -> N -> N -> N) (token : N) (isPrivate : bool) (pValue len op : N).
  Let upd := gen_P11Attribute__update isModifiable isTrusted getul checks osobject size updateAttr token isPrivate pValue len op.
  Let reached := updateAttr token isPrivate pValue len op.

  (* the rules of P11Attribute::update that hand an operation over to the attribute's updater:
     1. a ck8 or ck11 attribute, on C_SetAttributeValue and C_CopyObject;  2. a ck17 attribute, on C_CopyObject;
     3. any attribute when the object is created, derived, generated or unwrapped *)
  Definition update_allows : Prop :=
    ((OBJECT_OP_SET =? op) || (OBJECT_OP_COPY =? op) = true /\ (has checks ck8 = true \/ has checks ck11 = true)) \/
    ((OBJECT_OP_COPY =? op) = true /\ has checks ck17 = true) \/
    (OBJECT_OP_CREATE =? op) || (OBJECT_OP_DERIVE =? op) || (OBJECT_OP_GENERATE =? op) || (OBJECT_OP_UNWRAP =? op) = true.

  Ltac is_err := constructor; unfold is_error; auto.

  (* Every continuation of the engine is the code after an `if` without `else`, entered from both sides: `wp_join` at
     each of them proves each piece once.  At a call of the updater the two tests just passed name the rule. *)
  Lemma update_reaches : is_error upd \/ upd = reached /\ update_allows.
  Proof.
    refine (wp_elim upd (fun r => is_error r \/ r = reached /\ update_allows) _).
    subst upd. cbv beta delta [gen_P11Attribute__update].
    repeat first [wp_join | wp_step];
      lazymatch goal with
      | |- wp (updateAttr _ _ _ _ _) _ => constructor; right; split; [reflexivity | unfold update_allows, has; auto 6]
      | |- wp (_ tt) _ => auto
      | _ => is_err
      end.
  Qed.

  Theorem update_error_or_updater : is_error upd \/ upd = reached.
  Proof. destruct update_reaches as [H|[H _]]; auto. Qed.

  Theorem update_set_needs_ck8_or_ck11 :
    op = OBJECT_OP_SET -> has checks ck8 = false -> has checks ck11 = false -> is_error upd.
  Proof.
    intros Ho H8 H11. destruct update_reaches as [H|[_ H]]; [exact H|].
    unfold update_allows in H. rewrite Ho in H. destruct H as [[_ [H|H]] | [[H _] | H]].
    - (* rule 1, a ck8 attribute *) congruence.
    - (* rule 1, a ck11 attribute *) congruence.
    - (* rule 2 asks for OBJECT_OP_COPY *) discriminate H.
    - (* rule 3 asks for one of the four creating operations *) discriminate H.
  Qed.

  Theorem update_copy_needs_ck8_ck11_or_ck17 :
    op = OBJECT_OP_COPY -> has checks ck8 = false -> has checks ck11 = false -> has checks ck17 = false -> is_error upd.
  Proof.
    intros Ho H8 H11 H17. destruct update_reaches as [H|[_ H]]; [exact H|].
    unfold update_allows in H. rewrite Ho in H. destruct H as [[_ [H|H]] | [[_ H] | H]].
    - (* rule 1, a ck8 attribute *) congruence.
    - (* rule 1, a ck11 attribute *) congruence.
    - (* rule 2, a ck17 attribute *) congruence.
    - (* rule 3 asks for one of the four creating operations *) discriminate H.
  Qed.

  (* update_prohibited_on_creation and update_unmodifiable are on tests that lie before the rules: with the test
     decided, the walk ends there. *)

  (* ck2 / ck4 / ck6: MUST NOT be specified when the object is created / generated / unwrapped *)
  Theorem update_prohibited_on_creation :
    (op = OBJECT_OP_CREATE /\ has checks ck2 = true) \/ (op = OBJECT_OP_GENERATE /\ has checks ck4 = true) \/
    (op = OBJECT_OP_UNWRAP /\ has checks ck6 = true) -> is_error upd.
  Proof.
    intros [[-> H]|[[-> H]|[-> H]]]; unfold has, ck2, ck4, ck6 in H;
      refine (wp_elim upd is_error _); subst upd; cbv beta delta [gen_P11Attribute__update]; rewrite H;
      repeat wp_step; is_err.
  Qed.

  Theorem update_unmodifiable :
    isModifiable = false -> op <> OBJECT_OP_GENERATE -> op <> OBJECT_OP_CREATE -> is_error upd.
  Proof.
    unfold OBJECT_OP_GENERATE, OBJECT_OP_CREATE. intros -> Hg Hc. apply N.eqb_neq in Hg, Hc.
    refine (wp_elim upd is_error _). subst upd. cbv beta delta [gen_P11Attribute__update]. rewrite Hg, Hc.
    repeat wp_step; is_err.
  Qed.

  (* `size` is CK_UNAVAILABLE_INFORMATION for an attribute of variable length *)
  Theorem update_size_checked :
    osobject <> 0 -> (size <> CK_UNAVAILABLE_INFORMATION /\ size <> len) \/ (pValue = 0 /\ len <> 0) ->
    upd = CKR_ATTRIBUTE_VALUE_INVALID.
  Proof.
    unfold upd, gen_P11Attribute__update, CK_UNAVAILABLE_INFORMATION. intros Ho H. apply N.eqb_neq in Ho. rewrite Ho.
    destruct H as [[H1 H2]|[-> H2]].
    - apply N.eqb_neq in H1. apply N.eqb_neq in H2. rewrite H1, H2. cbn. destruct ((pValue =? 0) && negb (len =? 0)); reflexivity.
    - apply N.eqb_neq in H2. rewrite H2. reflexivity.
  Qed.
End Update.

Fixpoint str_lookup {A} (k : string) (l : list (string * A)) : option A :=
  match l with [] => None | (k', v) :: r => if String.eqb k k' then Some v else str_lookup k r end.
Fixpoint attr_row (a : N) (l : list (N * N * N * string)) : option (N * N * string) :=
  match l with [] => None | (t, s, c, n) :: r => if t =? a then Some (s, c, n) else attr_row a r end.

Definition class_attr_checks (cls : string) (a : N) : option N :=
  match str_lookup cls gen_attr_table with
  | Some rows => match attr_row a rows with Some (_, c, _) => Some c | None => None end
  | None => None
  end.

(* secret value attributes per key class (PKCS#11 v2.40 tables, footnote 7) *)
Definition secret_spec : list (string * list N) :=
  [ ("P11AESSecretKeyObj", [CKA_VALUE]); ("P11DESSecretKeyObj", [CKA_VALUE]); ("P11GenericSecretKeyObj", [CKA_VALUE]);
    ("P11GOSTSecretKeyObj", [CKA_VALUE]);
    ("P11RSAPrivateKeyObj", [CKA_PRIVATE_EXPONENT; CKA_PRIME_1; CKA_PRIME_2; CKA_EXPONENT_1; CKA_EXPONENT_2; CKA_COEFFICIENT]);
    ("P11DSAPrivateKeyObj", [CKA_VALUE]); ("P11DHPrivateKeyObj", [CKA_VALUE]); ("P11ECPrivateKeyObj", [CKA_VALUE]);
    ("P11EDPrivateKeyObj", [CKA_VALUE]); ("P11GOSTPrivateKeyObj", [CKA_VALUE]) ]%string.

Definition ck7_complete_check : bool :=
  forallb (fun ca => forallb (fun a => match class_attr_checks (fst ca) a with Some c => has c ck7 | None => false end) (snd ca)) secret_spec.

Theorem ck7_complete : ck7_complete_check = true.
Proof. vm_compute. reflexivity. Qed.

(* The checks below run over the regenerated table.  The class names are those of P11Objects.cpp and must match it
   letter for letter.  A class that lacks an attribute passes (`None => true`), and so would a class or attribute that
   vanished from the table: only ck7_complete insists on its rows, and aes_value_row shows the table is read at all. *)

(* the four history attributes, each with the updater class it must be bound to (those updaters refuse everything:
   C08_history_attrs_refuse_everything) *)
Definition history_attrs : list (N * string) :=
  [(CKA_LOCAL, "P11AttrLocal"); (CKA_KEY_GEN_MECHANISM, "P11AttrKeyGenMechanism");
   (CKA_ALWAYS_SENSITIVE, "P11AttrAlwaysSensitive"); (CKA_NEVER_EXTRACTABLE, "P11AttrNeverExtractable")]%string.

(* The one-way updaters of CKA_SENSITIVE and CKA_EXTRACTABLE (C08_sensitive_effects, C08_extractable_effects) begin
   alike: on C_SetAttributeValue / C_CopyObject (`c`) the change in the forbidden direction (`d`) is refused, and
   everything else falls through to the same tail.  A result other than the refusal is the tail's. *)
Lemma past_the_refusal {A} (c d : bool) (refusal tail r : A) :
  (if c then if d then refusal else tail else tail) = r -> refusal <> r -> tail = r.
Proof. destruct c, d; congruence. Qed.

(* domain-parameter objects cannot be unwrapped, so their CKA_LOCAL lacks ck6 *)
Definition is_domain_class (c : string) : bool :=
  String.eqb c "P11DomainObj" || String.eqb c "P11DSADomainObj" || String.eqb c "P11DHDomainObj".

(* Three checks over every class of the regenerated table; that they evaluate to true is C08_history_rows,
   C02_flag_updaters_bound and C08_readonly_flags (props/). *)
Definition history_rows_check : bool :=
  forallb (fun cr => forallb (fun hn =>
             match attr_row (fst hn) (snd cr) with
             | None => true
             | Some (_, c, n) => has c ck2 && has c ck4 && (has c ck6 || is_domain_class (fst cr))
                                 && negb (has c ck8) && negb (has c ck11) && negb (has c ck17) && String.eqb n (snd hn)
             end) history_attrs) gen_attr_table.

(* a theorem about gen_P11Attr<X>__updateAttr says something about the attribute only if that updater is the one every
   class of the table binds to it *)
Definition flag_rows_check : bool :=
  forallb (fun cr => forallb (fun hn =>
             match attr_row (fst hn) (snd cr) with
             | None => true
             | Some (_, c, n) => String.eqb n (snd hn)
             end)
            [(CKA_SENSITIVE, "P11AttrSensitive"); (CKA_EXTRACTABLE, "P11AttrExtractable"); (CKA_WRAP_WITH_TRUSTED, "P11AttrWrapWithTrusted");
             (CKA_TRUSTED, "P11AttrTrusted"); (CKA_PRIVATE, "P11AttrPrivate"); (CKA_TOKEN, "P11AttrToken"); (CKA_MODIFIABLE, "P11AttrModifiable");
             (CKA_COPYABLE, "P11AttrCopyable"); (CKA_DESTROYABLE, "P11AttrDestroyable")]%string) gen_attr_table.

(* the eight attributes listed carry neither ck8 nor ck11 in any class that has them: C_SetAttributeValue never
   reaches their updaters (update_set_needs_ck8_or_ck11) *)
Definition readonly_flags_check : bool :=
  forallb (fun cr => forallb (fun a =>
             match attr_row a (snd cr) with
             | None => true
             | Some (_, c, _) => negb (has c ck8) && negb (has c ck11)
             end) [CKA_PRIVATE; CKA_TOKEN; CKA_MODIFIABLE; CKA_DESTROYABLE; CKA_COPYABLE; CKA_CLASS; CKA_KEY_TYPE; CKA_LOCAL]) gen_attr_table.

(* non-vacuity: the table is not empty and the AES class guards CKA_VALUE *)
Example aes_value_row : class_attr_checks "P11AESSecretKeyObj" CKA_VALUE = Some (N.lor ck1 (N.lor ck4 (N.lor ck6 ck7))).
Proof. vm_compute. reflexivity. Qed.
