(* P11/FindFacts.v — object search is sound and complete (C19): what C_FindObjectsInit captures ([find_loop_spec],
   [findinit_sound_complete]), and how C_FindObjects hands it out ([batches_partition]). *)
From Coq Require Import List NArith Bool Lia Sorted.
From SoftHSM Require Import Gen_Const Defs Core AssocFacts AccessFacts StepFacts.
Import ListNotations.
Local Open Scope N_scope.

(* insert_sorted keeps a strictly ascending, duplicate-free list (std::set) *)
Lemma insert_sorted_In x l h : In h (insert_sorted x l) <-> h = x \/ In h l.
Proof.
  induction l as [|y r IH]; cbn; [intuition|].
  destruct (x <? y) eqn:E1; cbn; [intuition|].
  destruct (x =? y) eqn:E2; cbn.
  - apply N.eqb_eq in E2. subst. intuition.
  - rewrite IH. intuition.
Qed.

Definition ascending (l : list N) : Prop := StronglySorted N.lt l.

Lemma insert_sorted_ascending x l : ascending l -> ascending (insert_sorted x l).
Proof.
  unfold ascending. induction 1 as [|y r Hs IH Hf]; cbn; [repeat constructor|].
  destruct (N.ltb_spec x y) as [E1|E1]; [|destruct (N.eqb_spec x y) as [E2|E2]].
  - constructor; [constructor; assumption|]. constructor; [exact E1|]. eapply Forall_impl; [|exact Hf]. intros; lia.
  - constructor; assumption.
  - constructor; [exact IH|]. rewrite Forall_forall in *. intros z Hz. apply insert_sorted_In in Hz.
    destruct Hz as [->|Hz]; [lia|auto].
Qed.

(* the handle registered for an object is the first entry for it, and new entries come behind the old ones *)
Lemma obj_handle_registered s k ss p oid es :
  find_obj_handle (regs s (obj_regs s k ss p oid ++ es)) oid = Some (obj_handle s oid).
Proof.
  unfold obj_regs, obj_handle, find_obj_handle. rewrite regs_handles, filter_app.
  destruct (filter _ (st_handles s)) as [|[]]; [|reflexivity]. cbn. rewrite N.eqb_refl. reflexivity.
Qed.

Definition cand_selected (tc : tctx) (pub : bool) (tm : template) (c : N * bool * obj) : bool :=
  negb (pub && o_private (snd c)) && match match_template tc (snd c) tm with Some true => true | _ => false end.

(* the loop registers the selected candidates and collects their handles; the final state only has more
   entries ([find_loop_regs]), so each of these handles is still the one registered for its object *)
Lemma find_loop_spec tc pub k hs tm cands : forall s acc s' r,
  find_loop tc pub k hs tm cands s acc = Some (s', r) ->
  (forall h, In h r <->
             In h acc \/ Exists (fun c => find_obj_handle s' (fst (fst c)) = Some h) (filter (cand_selected tc pub tm) cands))
  /\ (ascending acc -> ascending r).
Proof.
  induction cands as [|[[oid istok] o] rest IH]; intros s acc s' r; cbn [find_loop filter].
  - intros [= <- <-]. split; [|auto]. intros h. rewrite Exists_nil. tauto.
  - unfold cand_selected at 1. cbn [snd]. destruct (pub && o_private o); [apply IH|].
    destruct (match_template tc o tm) as [[|]|]; [|apply IH|discriminate]. cbn [negb andb].
    rewrite add_obj_handle_eq. intros H. destruct (find_loop_regs _ _ _ _ _ _ _ _ _ _ H) as (es & E & _).
    destruct (IH _ _ _ _ H) as [I1 I2]. split; [|intros Ha; apply I2, insert_sorted_ascending, Ha].
    intros h. rewrite I1, insert_sorted_In, Exists_cons. cbn [fst].
    rewrite E at 1. rewrite regs_app, obj_handle_registered.
    split; [intros [[->|?]|?]; auto|intros [?|[[= ->]|?]]; auto].
Qed.

(* the oracle only permutes the candidates *)
Lemma insert_cand_In prio c l d : In d (insert_cand prio c l) <-> d = c \/ In d l.
Proof.
  induction l as [|e r IH]; cbn; [intuition|].
  match goal with |- context [if ?c then _ else _] => destruct c end; cbn; [intuition|]. rewrite IH. intuition.
Qed.
Lemma order_cands_In prio l d : In d (order_cands prio l) <-> In d l.
Proof.
  unfold order_cands. induction l as [|c r IH]; cbn; [reflexivity|]. rewrite insert_cand_In, IH. intuition.
Qed.

Definition public_session (s : state) (x : session) : bool :=
  negb ((sess_state s x =? CKS_RO_USER_FUNCTIONS) || (sess_state s x =? CKS_RW_USER_FUNCTIONS)).

Theorem findinit_sound_complete (s : state) (h : N) (x : session) (tm : template) (prio : list bytes) :
  st_init s = true -> get_session s h = Some x ->
  snd (step s (OFindInit h tm prio)) = RRv CKR_OK ->
  let s' := fst (step s (OFindInit h tm prio)) in
  exists x', alookup h (st_sessions s') = Some x' /\ s_op x' = SESSION_OP_FIND /\ ascending (s_find x') /\
    forall oh, In oh (s_find x') <->
      exists c, In c (candidates s (s_tok x)) /\
                cand_selected (tctx_of s (s_tok x)) (public_session s x) tm c = true /\
                find_obj_handle s' (fst (fst c)) = Some oh.
Proof.
  intros Hi Hs. unfold step. rewrite Hi, Hs. cbn [negb].
  destruct (negb (s_op x =? SESSION_OP_NONE)); [discriminate|].
  destruct (negb (forallb _ tm)); [discriminate|].
  fold (public_session s x).
  destruct (find_loop _ _ _ _ _ _ _ _) as [[s1 hs]|] eqn:Ef; [|discriminate]. cbn [fst snd]. intros _.
  destruct (find_loop_regs _ _ _ _ _ _ _ _ _ _ Ef) as (es & -> & _).
  destruct (find_loop_spec _ _ _ _ _ _ _ _ _ _ Ef) as [S1 S2].
  rewrite upd_session_eq. change (st_sessions (regs s es)) with (st_sessions s).
  exists (set_s_op x SESSION_OP_FIND hs). split; [|split; [reflexivity|split; [apply S2; constructor|]]].
  - simp_state. rewrite alookup_lupd, N.eqb_refl, (get_session_lookup s h x Hs). reflexivity.
  - intros oh. rewrite S1, Exists_exists. change (find_obj_handle (set_sessions ?a _)) with (find_obj_handle a). split.
    + intros [[]|(c & Hc & Hf)]. apply filter_In in Hc. rewrite order_cands_In in Hc. exists c. tauto.
    + intros (c & Hc & Hsel & Hf). right. exists c. rewrite filter_In, order_cands_In. auto.
Qed.

(* in a public or SO session no private object is captured *)
Lemma public_session_hides_private tc tm c : cand_selected tc true tm c = true -> o_private (snd c) = false.
Proof. unfold cand_selected. cbn. destruct (o_private (snd c)); [discriminate|reflexivity]. Qed.

Lemma public_session_iff s x : public_session s x = true <-> tok_login s (s_tok x) <> LUser.
Proof.
  unfold public_session. rewrite negb_true_iff. fold (is_user_state (sess_state s x)).
  rewrite <- sess_state_user. destruct (is_user_state (sess_state s x)); intuition congruence.
Qed.

Fixpoint batches (sizes : list nat) (l : list N) : list (list N) :=
  match sizes with
  | [] => []
  | n :: r => take n l :: batches r (drop n l)
  end.

Lemma take_firstn n l : take n l = firstn n l.
Proof. revert l. induction n as [|n IH]; intros [|x r]; cbn; rewrite ?IH; reflexivity. Qed.
Lemma drop_skipn n l : drop n l = skipn n l.
Proof. revert l. induction n as [|n IH]; intros [|x r]; cbn; rewrite ?IH; reflexivity. Qed.

Lemma take_drop n l : take n l ++ drop n l = l.
Proof. rewrite take_firstn, drop_skipn. apply firstn_skipn. Qed.

Theorem batches_partition sizes : forall l,
  concat (batches sizes l) = firstn (fold_right Nat.add 0%nat sizes) l.
Proof.
  induction sizes as [|n r IH]; intros l; cbn [batches concat fold_right]; [reflexivity|].
  rewrite IH, take_firstn, drop_skipn, firstn_skipn_comm. set (m := (n + _)%nat).
  rewrite <- (firstn_skipn n (firstn m l)) at 2. rewrite firstn_firstn. do 2 f_equal. lia.
Qed.

