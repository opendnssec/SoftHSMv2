(* P11/PersistFacts.v — token objects persist exactly; session objects die with their session;
   destroyed objects never reappear.

   [tok_objs s k] (PinFacts.v) is the list of token objects of token k with all attribute values.
   It is kept by a restart ([restart_keeps_objs]) and by every call except a successful
   C_CreateObject / C_CopyObject / C_DestroyObject / C_SetAttributeValue / C_InitToken
   ([objs_change_only_by]; per token, and only through a session / object of that very token:
   [objs_change_only_by_tok]).  Object ids are issued from one counter that survives restarts and never
   decreases, an id is used at most once over all stores ([inv_oid], [inv_uniq]), so an id that is
   absent below the counter — in particular the id of a destroyed object ([destroy_removes_oid]) —
   stays absent for ever ([destroyed_never_reappears]).  Session objects are gone when their session
   is closed, when all sessions of their token are closed, and after a restart
   ([close_kills_session_objects], [closeall_kills_session_objects]; C05_session_objects_die). *)
From Coq Require Import List NArith Bool Lia.
From SoftHSM Require Import Gen_Const Defs Core AssocFacts StepFacts HandleFacts PinFacts TokenFacts.
Import ListNotations.
Local Open Scope N_scope.

Theorem restart_keeps_objs (s : state) (b : bool) (k : N) : tok_objs (restart s b) k = tok_objs s k.
Proof. apply restart_keeps_pins. Qed.

Definition res_ok (r : res) : bool :=
  match r with RRv rv => rv =? CKR_OK | RHandle _ => true | _ => false end.
Definition obj_op (o : op) : bool :=
  match o with OCreate _ _ | OCopy _ _ _ | ODestroy _ _ | OSetAttr _ _ _ | OInitToken _ _ _ => true | _ => false end.
Definition obj_event (s : state) (o : op) : Prop := obj_op o = true /\ res_ok (snd (step s o)) = true.

Definition obj_event_on (s : state) (o : op) (k : N) : Prop :=
  match o with
  | OCreate h _ | OCopy h _ _ =>
      (exists x, get_session s h = Some x /\ s_tok x = k) /\ exists hh, snd (step s o) = RHandle hh
  | ODestroy h oh | OSetAttr h oh _ =>
      (exists e oid ob, get_object s oh = Some (e, LTok k oid, ob)) /\ snd (step s o) = RRv CKR_OK
  | OInitToken _ _ lab => lab = k /\ snd (step s o) = RRv CKR_OK
  | _ => False
  end.

Lemma obj_event_on_event s o k : obj_event_on s o k -> obj_event s o.
Proof.
  unfold obj_event. destruct o; cbn [obj_event_on obj_op]; try contradiction.
  2,3: (* create, copy *) intros [_ [hh ->]]; split; reflexivity.
  all: intros [_ ->]; split; reflexivity.
Qed.

Theorem objs_change_only_by_tok (s : state) (o : op) (k : N) :
  tok_objs (fst (step s o)) k = tok_objs s k \/ obj_event_on s o k.
Proof.
  destruct (step s o) as [s' r] eqn:Es. cbn [fst].
  destruct (step_token s o k s' r Es) as [(f & Ef & E)|(p & -> & -> & _)]; [|right; cbn [obj_event_on]; rewrite Es; auto].
  destruct Ef as [| |p|o x t f Hx Hk U|o x priv o1 hh Hx Hk Hn| |]; [| | |destruct U|destruct Hn|..].
  3: { right. cbn [obj_event_on]. rewrite Es. auto. }
  8-11: (* create, copy, destroy, set-attribute *) right; cbn [obj_event_on sess_of] in *; rewrite Es; cbn [snd]; eauto 7.
  all: left; unfold tok_objs; rewrite E; destruct (alookup k (st_tokens s)); reflexivity.
Qed.

Theorem objs_change_only_by (s : state) (o : op) (k : N) :
  tok_objs (fst (step s o)) k = tok_objs s k \/ obj_event s o.
Proof.
  destruct (objs_change_only_by_tok s o k) as [H|H]; [left; exact H|right; eapply obj_event_on_event; exact H].
Qed.

Corollary non_obj_op_keeps_objs (s : state) (o : op) (k : N) :
  obj_op o = false -> tok_objs (fst (step s o)) k = tok_objs s k.
Proof.
  intros Ho. destruct (objs_change_only_by s o k) as [H|[H _]]; [exact H|congruence].
Qed.

Corollary failed_call_keeps_objs (s : state) (o : op) (k : N) :
  res_ok (snd (step s o)) = false -> tok_objs (fst (step s o)) k = tok_objs s k.
Proof.
  intros Ho. destruct (objs_change_only_by s o k) as [H|[_ H]]; [exact H|congruence].
Qed.

Fixpoint no_obj_event (s : state) (ops : list op) : Prop :=
  match ops with
  | [] => True
  | o :: r => ~ obj_event s o /\ no_obj_event (fst (step s o)) r
  end.

Fixpoint no_obj_event_on (s : state) (ops : list op) (k : N) : Prop :=
  match ops with
  | [] => True
  | o :: r => ~ obj_event_on s o k /\ no_obj_event_on (fst (step s o)) r k
  end.

Theorem persist_trace_tok (ops : list op) : forall (s : state) (k : N),
  no_obj_event_on s ops k -> tok_objs (exec s ops) k = tok_objs s k.
Proof.
  intros s k. revert ops s. apply (exec_keeps_view (fun s => tok_objs s k) (fun s ops => no_obj_event_on s ops k)).
  intros s o r [H1 H2]. split; [|exact H2]. destruct (objs_change_only_by_tok s o k); [assumption|contradiction].
Qed.

Corollary persist_trace_syntactic (ops : list op) (s : state) (k : N) :
  forallb (fun o => negb (obj_op o)) ops = true -> tok_objs (exec s ops) k = tok_objs s k.
Proof.
  revert ops s. apply (exec_keeps_view (fun s => tok_objs s k) (fun _ ops => forallb (fun o => negb (obj_op o)) ops = true)).
  intros s o r H. cbn in H. apply andb_true_iff in H. destruct H as [H1 H2].
  split; [apply non_obj_op_keeps_objs, negb_true_iff, H1|exact H2].
Qed.

Definition tok_oids (ts : list (N * token)) : list N := flat_map (fun p => akeys (t_objs (snd p))) ts.
Definition oids (s : state) : list N := tok_oids (st_tokens s) ++ akeys (st_sobjs s).

Definition inv_oid (s : state) : Prop := forall i, In i (oids s) -> i < st_next_oid s.
Definition inv_uniq (s : state) : Prop := NoDup (oids s).

(* Ids are counted: that an id is present, and that it is present once, are then both arithmetic, and
   what a call does to the lists of ids is an inequality between counts. *)
Definition cnt (l : list N) (i : N) : nat := count_occ N.eq_dec l i.

Lemma cnt_app l m i : cnt (l ++ m) i = (cnt l i + cnt m i)%nat.
Proof. apply count_occ_app. Qed.

Lemma cnt_In l i : In i l <-> (0 < cnt l i)%nat.
Proof. unfold cnt. rewrite (count_occ_In N.eq_dec). lia. Qed.

Lemma cnt_cons a l i : cnt (a :: l) i = ((if a =? i then 1 else 0) + cnt l i)%nat.
Proof.
  unfold cnt. cbn. destruct (N.eq_dec a i) as [E|E].
  - subst. rewrite N.eqb_refl. reflexivity.
  - rewrite (neq_eqb_false a i E). reflexivity.
Qed.

Lemma cnt_NoDup l : NoDup l <-> forall i, (cnt l i <= 1)%nat.
Proof. apply NoDup_count_occ. Qed.

Lemma cnt_keys_filter {A} (f : N * A -> bool) l i : (cnt (akeys (filter f l)) i <= cnt (akeys l) i)%nat.
Proof.
  unfold akeys. induction l as [|[k v] r IH]; cbn [filter map]; [lia|].
  destruct (f (k, v)); cbn [map fst]; rewrite ?cnt_cons; lia.
Qed.

Lemma cnt_keys_aremove {A} (l : list (N * A)) k : cnt (akeys (aremove k l)) k = 0%nat.
Proof.
  unfold aremove, akeys. induction l as [|[k' v] r IH]; cbn [filter map fst negb]; [reflexivity|].
  destruct (k' =? k) eqn:E; cbn [negb map fst]; [exact IH|]. rewrite cnt_cons, E. exact IH.
Qed.

Lemma cnt_keys_snoc {A} (l : list (N * A)) k v i :
  cnt (akeys (l ++ [(k, v)])) i = (cnt (akeys l) i + (if k =? i then 1 else 0))%nat.
Proof. rewrite akeys_app, cnt_app. unfold akeys at 2. cbn [map fst]. rewrite cnt_cons. cbn. lia. Qed.

(* replacing a token moves its own ids out and those of the new value in *)
Lemma tok_oids_lupd ts k f t i : alookup k ts = Some t ->
  (cnt (tok_oids (lupd k f ts)) i + cnt (akeys (t_objs t)) i = cnt (tok_oids ts) i + cnt (akeys (t_objs (f t))) i)%nat.
Proof.
  intros H. rewrite (lupd_found _ _ _ f H). revert H. generalize (f t) as t'. intros t'. unfold tok_oids.
  induction ts as [|[k0 t0] r IH]; cbn [alookup aset]; [discriminate|].
  destruct (k0 =? k); cbn [flat_map snd]; rewrite !cnt_app; [intros [= ->]; lia|intros H; specialize (IH H); lia].
Qed.

Lemma cnt_tok_lupd ts k f i d :
  (forall t, alookup k ts = Some t -> (cnt (akeys (t_objs (f t))) i <= cnt (akeys (t_objs t)) i + d)%nat) ->
  (cnt (tok_oids (lupd k f ts)) i <= cnt (tok_oids ts) i + d)%nat.
Proof.
  intros H. destruct (alookup k ts) as [t|] eqn:E; [|unfold lupd; rewrite E; lia].
  specialize (H t eq_refl). pose proof (tok_oids_lupd ts k f t i E). lia.
Qed.

(* From s to s' the id counter does not go back, and no id occurs more often than before, except
   that an id issued in between may occur once more.  Reflexive and transitive, so it passes from
   calls to histories. *)
Definition oid_grow (s s' : state) : Prop :=
  st_next_oid s <= st_next_oid s' /\
  forall i, (cnt (oids s') i <= cnt (oids s) i)%nat \/
            (st_next_oid s <= i < st_next_oid s' /\ (cnt (oids s') i <= S (cnt (oids s) i))%nat).

Lemma oid_grow_refl s : oid_grow s s.
Proof. split; [lia|]. intros i. left. lia. Qed.

Lemma oid_grow_trans a b c : oid_grow a b -> oid_grow b c -> oid_grow a c.
Proof. intros [E1 H1] [E2 H2]. split; [lia|]. intros i. destruct (H1 i), (H2 i); [left|right..]; lia. Qed.

Lemma oid_grow_old s s' :
  st_next_oid s' = st_next_oid s ->
  (forall i, cnt (tok_oids (st_tokens s')) i <= cnt (tok_oids (st_tokens s)) i)%nat ->
  (forall i, cnt (akeys (st_sobjs s')) i <= cnt (akeys (st_sobjs s)) i)%nat -> oid_grow s s'.
Proof.
  intros E H1 H2. split; [lia|]. intros i. left. unfold oids. rewrite !cnt_app. specialize (H1 i). specialize (H2 i). lia.
Qed.

Lemma oid_grow_new s s' :
  st_next_oid s' = st_next_oid s + 1 ->
  (forall i, cnt (oids s') i <= cnt (oids s) i + (if st_next_oid s =? i then 1 else 0))%nat -> oid_grow s s'.
Proof.
  intros E H. split; [lia|]. intros i. specialize (H i). destruct (N.eqb_spec (st_next_oid s) i); [right|left]; lia.
Qed.

Lemma cnt_same (l' l : list N) : l' = l -> forall i, (cnt l' i <= cnt l i)%nat.
Proof. intros -> i. lia. Qed.
Lemma cnt_filtered {A} (f : N * A -> bool) l' l : l' = filter f l -> forall i, (cnt (akeys l') i <= cnt (akeys l) i)%nat.
Proof. intros -> i. apply cnt_keys_filter. Qed.
Lemma cnt_tok_le ts' ts k f :
  ts' = lupd k f ts ->
  (forall t, alookup k ts = Some t -> forall i, cnt (akeys (t_objs (f t))) i <= cnt (akeys (t_objs t)) i)%nat ->
  forall i, (cnt (tok_oids ts') i <= cnt (tok_oids ts) i)%nat.
Proof.
  intros -> Hf i. enough (cnt (tok_oids (lupd k f ts)) i <= cnt (tok_oids ts) i + 0)%nat by lia.
  apply cnt_tok_lupd. intros t Ht. specialize (Hf t Ht i). lia.
Qed.

Create HintDb oids.
#[local] Hint Resolve cnt_filtered cnt_tok_le : oids.
#[local] Hint Extern 1 (_ = _) => state_eq : oids.

Theorem step_oid_grow (s : state) (o : op) : oid_grow s (fst (step s o)).
Proof.
  destruct (step_trans s o) as [T | ->]; [|apply oid_grow_refl].
  trans_cases T.
  14: { (* C_SetAttributeValue on a session object *)
    this_is c_setattr_sobj. apply oid_grow_old; [state_eq|eauto with oids|]. simp_state. apply cnt_same, akeys_lupd. }
  13: { (* ... on a token object: the id is in the token already *)
    this_is c_setattr_tobj. apply oid_grow_old; [state_eq| |eauto with oids]. eapply cnt_tok_le; [state_eq|]. intros t Ht. apply cnt_same.
    match goal with H : get_object _ _ = Some _ |- _ => destruct (get_object_inv _ _ _ _ _ H) as (_ & _ & t' & Ht' & Ho) end.
    cbn [t_objs set_t_objs]. eapply akeys_aset_same. rewrite Ht in Ht'. injection Ht' as <-. exact Ho. }
  10: { this_is c_new_sobj.
    apply oid_grow_new; [state_eq|]. intros i. unfold oids, regs. simp_state. rewrite !cnt_app, cnt_keys_snoc. lia. }
  9: { (* the token gets the next id *)
    this_is c_new_tobj. apply oid_grow_new; [state_eq|]. intros i. unfold oids, regs. simp_state. rewrite !cnt_app.
    enough (cnt (tok_oids (lupd (s_tok x) (fun t => set_t_objs t (t_objs t ++ [(st_next_oid s, o1)])) (st_tokens s))) i
            <= cnt (tok_oids (st_tokens s)) i + (if st_next_oid s =? i then 1 else 0))%nat by lia.
    apply cnt_tok_lupd. intros t _. cbn [t_objs set_t_objs]. rewrite cnt_keys_snoc. lia. }
  7: (this_is c_token; match goal with H : tok_update _ _ _ _ _ |- _ => destruct H end).
  3: { (* a new token has no objects *)
    this_is c_newtoken. apply oid_grow_old; [state_eq| |eauto with oids]. simp_state. apply cnt_same.
    unfold tok_oids. rewrite flat_map_app. cbn. rewrite !app_nil_r. reflexivity. }
  2: { (* the token's objects are dropped *)
    this_is c_reinit. apply oid_grow_old; [state_eq| |eauto with oids]. eapply cnt_tok_le; [state_eq|]. intros t _ i. cbn. lia. }
  1: { (* the tokens keep their objects, the session objects go *)
    this_is c_restart. apply oid_grow_old; [reflexivity| |intros i; cbn; lia]. apply cnt_same. unfold restart, tok_oids. simp_state.
    rewrite flat_map_concat_map, map_map, <- flat_map_concat_map. reflexivity. }
  (* the other transitions change neither list, filter one, or keep the objects of the token they touch *)
  all: apply oid_grow_old; eauto with oids.
Qed.

Theorem exec_oid_grow (ops : list op) (s : state) : oid_grow s (exec s ops).
Proof.
  apply (exec_invariant (oid_grow s)); [|apply oid_grow_refl].
  intros s1 o H. eapply oid_grow_trans; [exact H|apply step_oid_grow].
Qed.

(* the id counter never decreases — not even over a restart *)
Theorem next_oid_mono (s : state) (o : op) : st_next_oid s <= st_next_oid (fst (step s o)).
Proof. apply step_oid_grow. Qed.

Theorem exec_next_oid_mono (ops : list op) : forall s, st_next_oid s <= st_next_oid (exec s ops).
Proof. intros s. apply exec_oid_grow. Qed.

Lemma restart_next_oid (s : state) (b : bool) : st_next_oid (restart s b) = st_next_oid s.
Proof. reflexivity. Qed.

Definition inv_oids (s : state) : Prop := inv_oid s /\ inv_uniq s.

Lemma oid_grow_inv s s' : oid_grow s s' -> inv_oids s -> inv_oids s'.
Proof.
  intros [Hm H] [Hinv Hu].
  assert (Hlt : forall i, (0 < cnt (oids s) i)%nat -> i < st_next_oid s) by (intros i Hi; apply Hinv, cnt_In, Hi).
  split.
  - intros i Hi. apply cnt_In in Hi. specialize (Hlt i). destruct (H i) as [Hc|[Hc _]]; lia.
  - (* an id that is issued was not there before *)
    unfold inv_uniq in *. rewrite cnt_NoDup in *. intros i. specialize (Hu i). specialize (Hlt i). destruct (H i) as [Hc|[Hi Hc]]; lia.
Qed.

Theorem exec_inv_oids (ops : list op) : forall s, inv_oids s -> inv_oids (exec s ops).
Proof. intros s. apply oid_grow_inv, exec_oid_grow. Qed.

Theorem inv_oids_reachable (ops : list op) : inv_oids (exec init_state ops).
Proof. apply exec_inv_oids. split; [intros i []|constructor]. Qed.

(* an id below the counter that is absent stays absent: no invariant needed *)
Theorem absent_never_reappears (ops : list op) : forall (s : state) (i : N),
  i < st_next_oid s -> ~ In i (oids s) -> ~ In i (oids (exec s ops)).
Proof. intros s i. rewrite !cnt_In. intros Hlt Hn. destruct (exec_oid_grow ops s) as [_ H]. destruct (H i); lia. Qed.

Theorem destroyed_never_reappears (s : state) (i : N) :
  inv_oid s -> i < st_next_oid s -> ~ In i (oids s) -> forall ops, ~ In i (oids (exec s ops)).
Proof. intros _ Hlt Hn ops. apply absent_never_reappears; assumption. Qed.

(* every id ever present is below the counter, so: once gone, gone for ever *)
Corollary gone_is_gone (ops1 ops2 ops3 : list op) (i : N) :
  let s1 := exec init_state ops1 in
  let s2 := exec s1 ops2 in
  In i (oids s1) -> ~ In i (oids s2) -> ~ In i (oids (exec s2 ops3)).
Proof.
  intros s1 s2 H1 H2. apply absent_never_reappears; [|exact H2].
  destruct (inv_oids_reachable ops1) as [Hinv _]. apply Hinv in H1. fold s1 in H1.
  pose proof (exec_next_oid_mono ops2 s1). fold s2 in H. lia.
Qed.

Definition loc_oid (l : oloc) : N := match l with LTok _ oid => oid | LSess oid => oid end.

Lemma get_object_oid_In s oh e l ob : get_object s oh = Some (e, l, ob) -> In (loc_oid l) (oids s).
Proof.
  intros H. destruct (get_object_inv _ _ _ _ _ H) as [_ Hl]. unfold oids. apply in_or_app. destruct l as [k oid|oid]; cbn [loc_oid].
  - left. destruct Hl as (_ & t & Ht & Ho). unfold tok_oids. apply in_flat_map. exists (k, t). eauto using alookup_In, alookup_keys.
  - right. destruct Hl as (so & Hso & _). eapply alookup_keys, Hso.
Qed.

Theorem destroy_removes_oid (s : state) (h oh : N) e l ob :
  inv_uniq s -> get_object s oh = Some (e, l, ob) -> snd (step s (ODestroy h oh)) = RRv CKR_OK ->
  In (loc_oid l) (oids s) /\ ~ In (loc_oid l) (oids (fst (step s (ODestroy h oh)))).
Proof.
  intros Hu Hg Hok. split; [eapply get_object_oid_In; exact Hg|].
  destruct (step_destroy s h oh Hok) as (e' & l' & ob' & Hg' & ->). rewrite Hg in Hg'. injection Hg' as <- <- <-.
  (* the id occurs once, in the store it is removed from *)
  apply cnt_NoDup with (i := loc_oid l) in Hu. rewrite cnt_In, del_object_eq. unfold oids in *. rewrite cnt_app in *.
  destruct (get_object_inv _ _ _ _ _ Hg) as [_ Hl]. destruct l as [k oid|oid]; simp_state; cbn [loc_oid] in *.
  - destruct Hl as (_ & t & Ht & Ho). apply alookup_keys, cnt_In in Ho.
    pose proof (tok_oids_lupd _ _ (fun t => set_t_objs t (aremove oid (t_objs t))) _ oid Ht) as Hc.
    cbn [t_objs set_t_objs] in Hc. rewrite cnt_keys_aremove in Hc. lia.
  - destruct Hl as (so & Hso & _). apply alookup_keys, cnt_In in Hso. rewrite cnt_keys_aremove. lia.
Qed.

Lemma absent_oid_no_object s oh e l ob : get_object s oh = Some (e, l, ob) -> ~ In (loc_oid l) (oids s) -> False.
Proof. intros H Hn. apply Hn. eapply get_object_oid_In. exact H. Qed.

(* closing a session: none of its session objects, no handle of an object it owns, and not its own
   handle is left.  When it was the last session of its token the code drops everything of the token;
   that this covers the session's own objects is the linkage invariant [inv_tok] (TokenFacts.v), true in
   every reachable state. *)
Theorem close_kills_session_objects (s : state) (h : N) (x : session) :
  inv_tok s -> st_init s = true -> get_session s h = Some x ->
  let s' := fst (step s (OClose h)) in
  (forall p, In p (st_sobjs s') -> so_sess (snd p) <> h) /\
  (forall p, In p (st_handles s') -> fst p <> h /\ (h_kind (snd p) = CKH_OBJECT -> h_sess (snd p) <> h)) /\
  get_session s' h = None.
Proof.
  intros Hinv Hi Hx s'.
  (* with its handle gone the session is dead *)
  enough (H : (forall p, In p (st_sobjs s') -> so_sess (snd p) <> h) /\
              (forall p, In p (st_handles s') -> fst p <> h /\ (h_kind (snd p) = CKH_OBJECT -> h_sess (snd p) <> h))).
  { destruct H as [H1 H2]. split; [exact H1|split; [exact H2|]]. unfold get_session. destruct (alookup h (st_handles s')) eqn:E; [|reflexivity].
    apply alookup_In, H2 in E. cbn in E. tauto. }
  subst s'. rewrite (step_close s h x Hi Hx). cbn [fst].
  destruct (other_session_on s (s_tok x) h); [unfold close_one|rewrite close_all_eq]; simp_state;
    split; intros [i e] Hp; apply filter_negb_In in Hp; destruct Hp as [Hin Hp]; cbn [fst snd] in *.
  - apply N.eqb_neq, Hp.
  - apply orb_false_iff in Hp. destruct Hp as [Hp1 Hp2]. split; [apply N.eqb_neq, Hp1|].
    intros Ek Es. rewrite Ek, Es, !N.eqb_refl in Hp2. discriminate.
  - (* the last session of the token: what belongs to the session belongs to the token *)
    apply N.eqb_neq in Hp. intro Es. apply Hp. eapply inv_owned_sobj; eauto.
  - apply N.eqb_neq in Hp. split; [intros ->; apply Hp; eapply inv_session_handle; eauto|].
    intros _ Es. apply Hp. eapply inv_owned_handle; eauto.
Qed.

Theorem closeall_kills_session_objects (s : state) (k : N) :
  st_init s = true -> amem k (st_tokens s) = true ->
  let s' := fst (step s (OCloseAll (TTok k))) in
  (forall p, In p (st_sobjs s') -> so_tok (snd p) <> k) /\
  (forall p, In p (st_sessions s') -> s_tok (snd p) <> k) /\
  (forall p, In p (st_handles s') -> h_tok (snd p) <> k) /\
  tok_login s' k = LNone /\
  (forall k', tok_objs s' k' = tok_objs s k').
Proof.
  intros Hi Hk s'. assert (Ho : forall k', tok_objs s' k' = tok_objs s k') by (intros k'; apply non_obj_op_keeps_objs; reflexivity).
  subst s'. rewrite (step_closeall s k Hi Hk), close_all_eq in *. cbn [fst] in *. unfold tok_login. simp_state.
  repeat split; [| | | |exact Ho].
  1-3: intros p Hp; apply filter_negb_In in Hp; apply N.eqb_neq, Hp.
  rewrite alookup_lupd, N.eqb_refl. destruct (alookup k (st_tokens s)); reflexivity.
Qed.

Theorem restart_kills_session_objects (s : state) (b : bool) :
  st_sobjs (restart s b) = [] /\ st_sessions (restart s b) = [] /\ st_handles (restart s b) = [] /\
  forall k, tok_objs (restart s b) k = tok_objs s k.
Proof. repeat split. intros k. apply restart_keeps_objs. Qed.

Theorem restart_ops_kill_session_objects (s : state) (o : op) :
  is_restart o = true -> rv_of (snd (step s o)) = Some CKR_OK ->
  st_sobjs (fst (step s o)) = [] /\ forall k, tok_objs (fst (step s o)) k = tok_objs s k.
Proof.
  intros Hr Hok. pose proof (step_ok s o Hok) as T. destruct (step s o) as [s' r]. cbn [fst snd] in *.
  (* C_Initialize, C_Finalize, a new process: the one transition each can take is a restart *)
  destruct o; try discriminate Hr; specialize (T eq_refl); trans_inv T.
  all: split; [reflexivity|intros k; apply restart_keeps_objs].
Qed.

Corollary session_objects_die_reachable (ops : list op) (h : N) (x : session) :
  let s := exec init_state ops in
  st_init s = true -> get_session s h = Some x ->
  forall p, In p (st_sobjs (fst (step s (OClose h)))) -> so_sess (snd p) <> h.
Proof. intros s Hi Hx. apply (close_kills_session_objects s h x (inv_tok_reachable ops) Hi Hx). Qed.

Definition per_pin : bytes := [49; 50; 51; 52].
Definition per_tmpl (tok : N) (v : bytes) : template :=
  [mkT CKA_CLASS (Some (le_encode 8 CKO_DATA)) 8; mkT CKA_TOKEN (Some [tok]) 1; mkT CKA_PRIVATE (Some [0]) 1;
   mkT CKA_VALUE (Some v) (blen v)].
(* a token, a R/W session (handle 1), token objects A (id 1, handle 2) and B (id 2, handle 3), a session object C
   (id 3, handle 4) *)
Definition per_ops1 : list op :=
  [OInit; OInitToken TFree (Some per_pin) 0; OOpen (TTok 0) 6;
   OCreate 1 (per_tmpl 1 [10; 11]); OCreate 1 (per_tmpl 1 [20; 21; 22]); OCreate 1 (per_tmpl 0 [30])].
(* destroy A, restart the library *)
Definition per_ops2 : list op := [ODestroy 1 2; OFini; OInit].
(* open a session again and create another token object *)
Definition per_ops3 : list op := [OOpen (TTok 0) 6; OCreate 1 (per_tmpl 1 [40])].

Example persist_example :
  let s1 := exec init_state per_ops1 in
  let s2 := exec s1 per_ops2 in
  let s3 := exec s2 per_ops3 in
  run init_state per_ops1 = [RRv CKR_OK; RRv CKR_OK; RHandle 1; RHandle 2; RHandle 3; RHandle 4] /\
  run s1 per_ops2 = [RRv CKR_OK; RRv CKR_OK; RRv CKR_OK] /\
  run s2 per_ops3 = [RHandle 1; RHandle 2] /\
  oids s1 = [1; 2; 3] /\ oids s2 = [2] /\ oids s3 = [2; 4] /\
  (exists a b, tok_objs s1 0 = Some [(1, a); (2, b)] /\
               (* A is gone, B is there with identical attribute values, the session object C is gone *)
               tok_objs s2 0 = Some [(2, b)] /\ st_sobjs s2 = [] /\
               alookup CKA_VALUE b = Some (ABytes None [20; 21; 22]) /\
               (* the new object got a new id, not the one of A *)
               exists c, tok_objs s3 0 = Some [(2, b); (4, c)]) /\
  (* and by the theorem: whatever happens next, id 1 never denotes an object again *)
  (forall ops, ~ In 1 (oids (exec s3 ops))).
Proof.
  cbv zeta. repeat (split; [vm_compute; reflexivity|]). split.
  - vm_compute. do 2 eexists. repeat (split; [reflexivity|]). eexists. reflexivity.
  - intros ops. apply absent_never_reappears; [vm_compute; reflexivity|]. vm_compute. intros [H|[H|[]]]; discriminate.
Qed.
