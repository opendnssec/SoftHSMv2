(* P11/StepFacts.v — [step] as transition rules.

   [trans s o s' r]: call o takes state s to s' and answers r.  The rules are sound ([step_cases]: a call
   takes a transition, or leaves the state alone - and then has not answered CKR_OK unless it only reads)
   and complete ([trans_step]).  The target of every rule is, or unfolds to ([close_all_eq], [put_object_eq],
   [del_object_eq], the definitions [close_one], [logged_out], [store_new]), a term of record setters and
   operations on the four association lists (filter, append, [lupd]; new handle entries through [regs]);
   [trans_cases] leaves it in that form, so each component of the new state is read off by computation and
   no lemma per updater and component is needed.  Facts about all calls (invariants, "only these calls
   change that") go by cases on [trans], facts about one call from its rule ([trans_step], [step_ok] with
   [trans_inv]) - or by unfolding [step] where a call is refused. *)
From Coq Require Import List NArith Bool Lia.
From SoftHSM Require Import Gen_Const Defs Core AssocFacts AccessFacts.
Import ListNotations.
Local Open Scope N_scope.

Ltac break_match :=
  match goal with
  | |- context [match ?x with _ => _ end] => destruct x eqn:?
  | |- context [if ?x then _ else _] => destruct x eqn:?
  end.

Ltac break_let :=
  match goal with
  | |- context [let (_, _) := ?x in _] => destruct x eqn:?
  end.

Ltac simp_state :=
  cbn [st_init st_tokens st_sessions st_handles st_counter st_sobjs st_next_oid st_next_key
       set_init set_tokens set_sessions set_handles set_counter set_sobjs set_next_oid set_next_key fst snd] in *.

Lemma upd_token_eq s k f : upd_token s k f = set_tokens s (lupd k f (st_tokens s)).
Proof. unfold upd_token, lupd. destruct (alookup k (st_tokens s)); [reflexivity|destruct s; reflexivity]. Qed.

Lemma upd_session_eq s h f : upd_session s h f = set_sessions s (lupd h f (st_sessions s)).
Proof. unfold upd_session, lupd. destruct (alookup h (st_sessions s)); [reflexivity|destruct s; reflexivity]. Qed.

Lemma close_all_eq s k :
  close_all s k =
  set_tokens (set_sessions (set_sobjs (set_handles s (filter (fun p => negb (h_tok (snd p) =? k)) (st_handles s)))
                                      (filter (fun p => negb (so_tok (snd p) =? k)) (st_sobjs s)))
                           (filter (fun p => negb (s_tok (snd p) =? k)) (st_sessions s)))
             (lupd k (fun t => set_t_login t LNone) (st_tokens s)).
Proof. unfold close_all. rewrite upd_token_eq. reflexivity. Qed.

Lemma restart_lookup (s : state) (b : bool) (k : N) :
  alookup k (st_tokens (restart s b)) = option_map (fun t => set_t_login t LNone) (alookup k (st_tokens s)).
Proof. exact (alookup_map (fun t => set_t_login t LNone) (st_tokens s) k). Qed.

Definition set_so_obj (o : obj) (so : sobj) : sobj := mkSObj (so_tok so) (so_sess so) (so_priv so) o.

Lemma put_object_eq s l o :
  put_object s l o =
  match l with
  | LTok k oid => set_tokens s (lupd k (fun t => set_t_objs t (aset oid o (t_objs t))) (st_tokens s))
  | LSess oid => set_sobjs s (lupd oid (set_so_obj o) (st_sobjs s))
  end.
Proof.
  destruct l; cbn [put_object]; [apply upd_token_eq|].
  unfold lupd. destruct (alookup oid (st_sobjs s)); [reflexivity|destruct s; reflexivity].
Qed.

Lemma del_object_eq s l :
  del_object s l =
  match l with
  | LTok k oid => set_tokens s (lupd k (fun t => set_t_objs t (aremove oid (t_objs t))) (st_tokens s))
  | LSess oid => set_sobjs s (aremove oid (st_sobjs s))
  end.
Proof. destruct l; cbn [del_object]; [apply upd_token_eq|reflexivity]. Qed.

Lemma tok_login_lupd (s s' : state) (j k : N) (f : token -> token) :
  st_tokens s' = lupd j f (st_tokens s) ->
  tok_login s' k = if j =? k then match alookup j (st_tokens s) with Some t => t_login (f t) | None => LNone end
                   else tok_login s k.
Proof.
  unfold tok_login. intros ->. rewrite alookup_lupd. destruct (j =? k); [|reflexivity].
  destruct (alookup j (st_tokens s)); reflexivity.
Qed.

Lemma get_session_lookup s h x : get_session s h = Some x -> alookup h (st_sessions s) = Some x.
Proof. unfold get_session. destruct (alookup h (st_handles s)) as [e|]; [destruct (h_kind e =? CKH_SESSION)|]; congruence. Qed.

Lemma get_object_inv s oh e l ob :
  get_object s oh = Some (e, l, ob) ->
  alookup oh (st_handles s) = Some e /\
  match l with
  | LSess oid => exists so, alookup oid (st_sobjs s) = Some so /\ ob = so_obj so
  | LTok k oid => k = h_tok e /\ exists t, alookup k (st_tokens s) = Some t /\ alookup oid (t_objs t) = Some ob
  end.
Proof.
  unfold get_object. destruct (alookup oh (st_handles s)) as [e0|]; [|discriminate].
  destruct (h_kind e0 =? CKH_OBJECT); [|discriminate].
  destruct (alookup (h_oid e0) (st_sobjs s)) as [so|] eqn:Es; [intros [= <- <- <-]; eauto|].
  destruct (alookup (h_tok e0) (st_tokens s)) as [t|] eqn:Et; [|discriminate].
  destruct (alookup (h_oid e0) (t_objs t)) eqn:Eo; [|discriminate]. intros [= <- <- <-]. eauto 6.
Qed.

(* HandleManager: new entries get the next counter values *)
Fixpoint number (c : N) (es : list hentry) : list (N * hentry) :=
  match es with [] => [] | e :: r => (c + 1, e) :: number (c + 1) r end.
Definition regs (s : state) (es : list hentry) : state :=
  set_counter (set_handles s (st_handles s ++ number (st_counter s) es)) (st_counter s + N.of_nat (length es)).

(* closes [st_x <term of setters, regs and aremove> = <list>] *)
Ltac state_eq := unfold regs, aremove; simp_state; reflexivity.

Lemma regs_handles s es : st_handles (regs s es) = st_handles s ++ number (st_counter s) es.
Proof. reflexivity. Qed.
Lemma regs_counter s es : st_counter (regs s es) = st_counter s + N.of_nat (length es).
Proof. reflexivity. Qed.

Lemma regs_nil s : regs s [] = s.
Proof. destruct s. unfold regs. cbn. rewrite app_nil_r, N.add_0_r. reflexivity. Qed.

Lemma number_app c a b : number c (a ++ b) = number c a ++ number (c + N.of_nat (length a)) b.
Proof.
  revert c. induction a as [|e r IH]; intros c; cbn [number app length]; [rewrite N.add_0_r; reflexivity|].
  rewrite IH. do 3 f_equal. lia.
Qed.

Lemma regs_app s a b : regs (regs s a) b = regs s (a ++ b).
Proof.
  unfold regs. simp_state. rewrite number_app, app_assoc, app_length, Nat2N.inj_add, N.add_assoc. reflexivity.
Qed.

Lemma number_keys c es h : In h (akeys (number c es)) -> c < h <= c + N.of_nat (length es).
Proof.
  revert c. induction es as [|e r IH]; intros c; cbn [number akeys map fst length]; [intros []|].
  intros [<-|H]; [lia|]. apply IH in H. lia.
Qed.

Lemma number_NoDup c es : NoDup (akeys (number c es)).
Proof.
  revert c. induction es as [|e r IH]; intros c; cbn [number akeys map fst]; constructor; [|apply IH].
  intro H. apply number_keys in H. lia.
Qed.

Lemma number_In c es h (e : hentry) : In (h, e) (number c es) -> In e es.
Proof. revert c. induction es as [|e0 r IH]; intros c; cbn; [auto|]. intros [[= _ ->]|H]; eauto. Qed.

Lemma add_handle_eq s e : add_handle s e = (regs s [e], st_counter s + 1).
Proof. reflexivity. Qed.

(* the entries and the handle of addTokenObject / addSessionObject *)
Definition obj_regs (s : state) (k sess : N) (priv : bool) (oid : N) : list hentry :=
  match find_obj_handle s oid with Some _ => [] | None => [mkHandle CKH_OBJECT k sess priv oid] end.
Definition obj_handle (s : state) (oid : N) : N :=
  match find_obj_handle s oid with Some h => h | None => st_counter s + 1 end.

Lemma add_obj_handle_eq s k sess priv oid :
  add_obj_handle s k sess priv oid = (regs s (obj_regs s k sess priv oid), obj_handle s oid).
Proof.
  unfold add_obj_handle, obj_regs, obj_handle. destruct (find_obj_handle s oid); [rewrite regs_nil|]; reflexivity.
Qed.

(* entries a search of session [hs] on token [k] may register *)
Definition reg_for (k hs : N) (e : hentry) : Prop :=
  h_kind e = CKH_OBJECT /\ h_tok e = k /\ (h_sess e = CK_INVALID_HANDLE \/ h_sess e = hs).

Lemma obj_regs_for s k hs (tok priv : bool) oid :
  Forall (reg_for k hs) (obj_regs s k (if tok then CK_INVALID_HANDLE else hs) priv oid).
Proof.
  unfold obj_regs. destruct (find_obj_handle s oid); constructor; [|constructor].
  repeat split. destruct tok; auto.
Qed.

Lemma reg_for_tok k hs es : Forall (reg_for k hs) es -> Forall (fun e => h_tok e = k) es.
Proof. apply Forall_impl. intros e (_ & E & _). exact E. Qed.

Lemma obj_regs_tok s k ss priv oid : Forall (fun e => h_tok e = k) (obj_regs s k ss priv oid).
Proof. unfold obj_regs. destruct (find_obj_handle s oid); repeat constructor. Qed.

Lemma find_loop_regs tc pub k hs tm cands : forall s acc s' r,
  find_loop tc pub k hs tm cands s acc = Some (s', r) -> exists es, s' = regs s es /\ Forall (reg_for k hs) es.
Proof.
  induction cands as [|[[oid istok] o] rest IH]; intros s acc s' r; cbn [find_loop].
  - intros [= <- _]. exists []. split; [symmetry; apply regs_nil|constructor].
  - destruct (pub && o_private o); [apply IH|].
    destruct (match_template tc o tm) as [[|]|]; [|apply IH|discriminate].
    rewrite add_obj_handle_eq. intros H. apply IH in H. destruct H as (es & -> & Hes).
    eexists. rewrite regs_app. split; [reflexivity|]. apply Forall_app. split; [apply obj_regs_for|exact Hes].
Qed.

Definition sess_entry (k : N) : hentry := mkHandle CKH_SESSION k CK_INVALID_HANDLE false 0.

(* C_CloseSession while other sessions of the token stay: the session, its handle, the objects it owns
   and their handles go *)
Definition close_one (s : state) (h : N) : state :=
  set_sessions
    (set_sobjs
       (set_handles s (filter (fun p => negb ((fst p =? h) || (h_kind (snd p) =? CKH_OBJECT) && (h_sess (snd p) =? h))) (st_handles s)))
       (filter (fun p => negb (so_sess (snd p) =? h)) (st_sobjs s)))
    (aremove h (st_sessions s)).

(* C_Logout on token k: nobody is logged in, private objects lose their handles, private session objects go *)
Definition logged_out (s : state) (k : N) : state :=
  set_sobjs
    (set_handles (set_tokens s (lupd k (fun t => set_t_login t LNone) (st_tokens s)))
       (filter (fun p => negb ((h_kind (snd p) =? CKH_OBJECT) && (h_tok (snd p) =? k) && h_priv (snd p))) (st_handles s)))
    (filter (fun p => negb ((so_tok (snd p) =? k) && so_priv (snd p))) (st_sobjs s)).

(* C_CreateObject / C_CopyObject: the new object [o1] gets the next object id and goes to the token
   or to the session object store *)
Definition store_new (s : state) (k h : N) (tok priv : bool) (o1 : obj) : state :=
  set_sobjs (set_tokens (set_next_oid s (st_next_oid s + 1))
               (if tok then lupd k (fun t => set_t_objs t (t_objs t ++ [(st_next_oid s, o1)])) (st_tokens s) else st_tokens s))
            (if tok then st_sobjs s else st_sobjs s ++ [(st_next_oid s, mkSObj k h priv o1)]).
Lemma store_new_eq s k h (tok priv : bool) o1 :
  (if tok then upd_token (set_next_oid s (st_next_oid s + 1)) k (fun t => set_t_objs t (t_objs t ++ [(st_next_oid s, o1)]))
   else set_sobjs (set_next_oid s (st_next_oid s + 1)) (st_sobjs s ++ [(st_next_oid s, mkSObj k h priv o1)])) =
  store_new s k h tok priv o1.
Proof. destruct tok; [rewrite upd_token_eq|]; destruct s; reflexivity. Qed.

(* what C_CopyObject hands to saveTemplate: a copy that becomes private has its byte strings encrypted *)
Definition copied (upgrade : bool) (key : N) (ob : obj) : obj :=
  map (fun kv => match snd kv with
                 | ABytes None (b0 :: br) => if upgrade then (fst kv, ABytes (Some key) (b0 :: br)) else kv
                 | _ => kv
                 end) ob.

(* Calls that make the same change of state share a rule of [changes]; these relations say which calls they
   are and under which tests: restarts; closing all sessions of a token; an update of the token record (login,
   PIN change); a new object (create, copy); reading on in a search. *)
Inductive restarts (s : state) : op -> bool -> Prop :=
| R_newproc : restarts s ONewProc false
| R_init : st_init s = false -> restarts s OInit true
| R_fini : st_init s = true -> restarts s OFini false.

Inductive closes_all (s : state) : op -> N -> Prop :=
| C_last h x : get_session s h = Some x -> other_session_on s (s_tok x) h = false -> closes_all s (OClose h) (s_tok x)
| C_all k : amem k (st_tokens s) = true -> closes_all s (OCloseAll (TTok k)) k.

Inductive tok_update (s : state) (x : session) (t : token) : op -> (token -> token) -> Prop :=
| U_login_so h p :
    t_login t = LNone -> pin_ok (t_sopin t) p = true ->
    existsb (fun q => (s_tok (snd q) =? s_tok x) && negb (s_rw (snd q))) (st_sessions s) = false ->
    tok_update s x t (OLogin h CKU_SO (Some p)) (fun t => set_t_login t LSO)
| U_login_user h p up :
    t_login t = LNone -> t_userpin t = Some up -> pin_ok up p = true ->
    tok_update s x t (OLogin h CKU_USER (Some p)) (fun t => set_t_login t LUser)
| U_initpin h p :
    sess_state s x = CKS_RW_SO_FUNCTIONS -> pin_len_ok (blen p) = true ->
    tok_update s x t (OInitPin h (Some p)) (fun t => set_t_userpin t (Some p))
| U_setpin_user h po pn up :
    pin_len_ok (blen pn) = true ->
    (sess_state s x =? CKS_RW_PUBLIC_SESSION) || (sess_state s x =? CKS_RW_USER_FUNCTIONS) = true ->
    t_userpin t = Some up -> pin_ok up po = true ->
    tok_update s x t (OSetPin h (Some po) (Some pn)) (fun t => set_t_userpin t (Some pn))
| U_setpin_so h po pn :
    pin_len_ok (blen pn) = true -> sess_state s x = CKS_RW_SO_FUNCTIONS -> pin_ok (t_sopin t) po = true ->
    tok_update s x t (OSetPin h (Some po) (Some pn)) (fun t => set_t_sopin t pn).

Inductive new_object (s : state) (x : session) : op -> bool -> bool -> obj -> Prop :=
| N_create h tm o1 :
    tmpl_wellformed tm = true -> tmpl_ulong CKA_CLASS tm = Some CKO_DATA -> (32 <? N.of_nat (length tm)) = false ->
    let priv := negb (tmpl_bool CKA_PRIVATE tm 1 =? 0) in
    save_template (tctx_of s (s_tok x)) true priv (reorder tm) OBJECT_OP_CREATE data_defaults = (CKR_OK, o1) ->
    new_object s x (OCreate h tm) (negb (tmpl_bool CKA_TOKEN tm 0 =? 0)) priv o1
| N_copy h oh e loc ob tm o1 :
    get_object s oh = Some (e, loc, ob) ->
    have_read (sess_state s x) (o_token ob) (o_private ob) = CKR_OK -> obj_bool ob CKA_COPYABLE true = true ->
    tmpl_wellformed tm = true -> obj_ulong ob CKA_CLASS CKO_VENDOR_DEFINED = CKO_DATA ->
    let priv := negb (tmpl_bool CKA_PRIVATE tm (b2n (o_private ob)) =? 0) in
    o_private ob && negb priv = false ->
    let tc := tctx_of s (s_tok x) in
    let upgrade := negb (o_private ob) && priv in
    upgrade && negb (tc_logged tc) = false ->
    save_template tc true priv tm OBJECT_OP_COPY (copied upgrade (tc_key tc) ob) = (CKR_OK, o1) ->
    new_object s x (OCopy h oh tm) (negb (tmpl_bool CKA_TOKEN tm (b2n (o_token ob)) =? 0)) priv o1.

Inductive find_next (x : session) : op -> (session -> session) -> res -> Prop :=
| F_find h mx :
    let n := N.to_nat (N.min mx (N.of_nat (length (s_find x)))) in
    find_next x (OFind h mx) (fun y => set_s_op y SESSION_OP_FIND (drop n (s_find y))) (RFound (take n (s_find x)))
| F_final h : find_next x (OFindFinal h) (fun y => set_s_op y SESSION_OP_NONE []) (RRv CKR_OK).

Lemma find_next_keeps x o f r : find_next x o f r -> forall y, s_tok (f y) = s_tok y /\ s_rw (f y) = s_rw y.
Proof. intros []; split; reflexivity. Qed.

(* the session handle a call goes through; 0 (never a live handle in a reachable state: [inv_handles]) for a
   call that goes through none *)
Definition sess_of (o : op) : N :=
  match o with
  | OClose h | OSInfo h | OLogin h _ _ | OLogout h | OInitPin h _ | OSetPin h _ _ | OCreate h _ | OCopy h _ _
  | ODestroy h _ | OObjSize h _ | OGetAttr h _ _ | OSetAttr h _ _ | OFindInit h _ _ | OFind h _ | OFindFinal h
  | OUseInit _ h _ => h
  | _ => 0
  end.

(* The rules of an initialised library.  A call added to [op] needs, besides its rule here (at the end), its path in
   [step_cases] and [trans_step], its case in [trans_cases], and a look at the definitions by cases on [op]: [sess_of],
   [reads_only] (here), [is_restart] (HandleFacts.v), [tok_effect], [pin_event] (PinFacts.v), [addresses] (TokenFacts.v),
   [obj_op], [obj_event_on] (PersistFacts.v), [cross_ok], [same_token_op], [same_token_opb] (EncFacts.v) - most of them
   end in a branch `| _ =>`, which takes a new constructor in without a word. *)
Inductive changes (s : state) : op -> state -> res -> Prop :=
| T_reinit k p t0 :
    alookup k (st_tokens s) = Some t0 -> existsb (fun q => s_tok (snd q) =? k) (st_sessions s) = false ->
    pin_len_ok (blen p) = true -> pin_ok (t_sopin t0) p = true ->
    changes s (OInitToken (TTok k) (Some p) k)
          (set_tokens s (lupd k (fun t => mkToken (t_sopin t) None LNone (t_key t) []) (st_tokens s))) (RRv CKR_OK)
| T_newtoken p label :
    amem label (st_tokens s) = false -> pin_len_ok (blen p) = true ->
    changes s (OInitToken TFree (Some p) label)
          (set_next_key (set_tokens s (st_tokens s ++ [(label, mkToken p None LNone (st_next_key s) [])])) (st_next_key s + 1))
          (RRv CKR_OK)
| T_open k flags :
    amem k (st_tokens s) = true -> (N.land flags CKF_SERIAL_SESSION =? 0) = false ->
    let rw := N.land flags CKF_RW_SESSION =? CKF_RW_SESSION in
    negb rw && is_so (tok_login s k) = false ->
    changes s (OOpen (TTok k) flags)
          (set_sessions (regs s [sess_entry k]) (st_sessions s ++ [(st_counter s + 1, mkSession k rw SESSION_OP_NONE [])]))
          (RHandle (st_counter s + 1))
| T_close h x :
    get_session s h = Some x -> other_session_on s (s_tok x) h = true ->
    changes s (OClose h) (close_one s h) (RRv CKR_OK)
| T_close_all o k : closes_all s o k -> changes s o (close_all s k) (RRv CKR_OK)
| T_token o x t f :
    get_session s (sess_of o) = Some x -> alookup (s_tok x) (st_tokens s) = Some t -> tok_update s x t o f ->
    changes s o (set_tokens s (lupd (s_tok x) f (st_tokens s))) (RRv CKR_OK)
| T_logout h x :
    get_session s h = Some x ->
    changes s (OLogout h) (logged_out s (s_tok x)) (RRv CKR_OK)
| T_new o x tok priv o1 :
    get_session s (sess_of o) = Some x -> new_object s x o tok priv o1 ->
    have_write (sess_state s x) tok priv = CKR_OK ->
    let s2 := store_new s (s_tok x) (sess_of o) tok priv o1 in
    changes s o (regs s2 (obj_regs s2 (s_tok x) (if tok then CK_INVALID_HANDLE else sess_of o) priv (st_next_oid s)))
          (RHandle (obj_handle s2 (st_next_oid s)))
| T_destroy h oh x e loc ob :
    get_session s h = Some x -> get_object s oh = Some (e, loc, ob) ->
    have_write (sess_state s x) (o_token ob) (o_private ob) = CKR_OK -> obj_bool ob CKA_DESTROYABLE true = true ->
    changes s (ODestroy h oh) (del_object (set_handles s (aremove oh (st_handles s))) loc) (RRv CKR_OK)
| T_setattr h oh x e loc ob tm o1 :
    get_session s h = Some x -> get_object s oh = Some (e, loc, ob) ->
    have_write (sess_state s x) (o_token ob) (o_private ob) = CKR_OK -> obj_bool ob CKA_MODIFIABLE true = true ->
    tmpl_wellformed tm = true -> obj_ulong ob CKA_CLASS CKO_VENDOR_DEFINED = CKO_DATA ->
    save_template (tctx_of s (s_tok x)) true (o_private ob) tm OBJECT_OP_SET ob = (CKR_OK, o1) ->
    changes s (OSetAttr h oh tm) (put_object s loc o1) (RRv CKR_OK)
| T_findinit h x tm prio es hs :
    get_session s h = Some x -> s_op x = SESSION_OP_NONE ->
    forallb (fun e => match te_val e with Some b => blen b =? te_len e | None => te_len e =? 0 end) tm = true ->
    let st := sess_state s x in
    let public := negb ((st =? CKS_RO_USER_FUNCTIONS) || (st =? CKS_RW_USER_FUNCTIONS)) in
    find_loop (tctx_of s (s_tok x)) public (s_tok x) h tm (order_cands prio (candidates s (s_tok x))) s [] = Some (regs s es, hs) ->
    Forall (reg_for (s_tok x) h) es ->     (* implied by the line above ([find_loop_regs]); here for the rule's users *)
    changes s (OFindInit h tm prio)
          (set_sessions (regs s es) (lupd h (fun x => set_s_op x SESSION_OP_FIND hs) (st_sessions s))) (RRv CKR_OK)
| T_find o x f r :
    get_session s (sess_of o) = Some x -> s_op x = SESSION_OP_FIND -> find_next x o f r ->
    changes s o (set_sessions s (lupd (sess_of o) f (st_sessions s))) r.

Inductive trans (s : state) : op -> state -> res -> Prop :=
| T_restart o b : restarts s o b -> trans s o (restart s b) (RRv CKR_OK)
| T_call o s' r : st_init s = true -> changes s o s' r -> trans s o s' r.

Lemma trans_rv s o s' r : trans s o s' r -> rv_of r = Some CKR_OK.
Proof.
  intros [|? ? ? _ C]; [reflexivity|]. destruct C; try reflexivity.
  match goal with H : find_next _ _ _ _ |- _ => destruct H; reflexivity end.
Qed.

Lemma resolve_tok s t k : resolve s t = Some (Some k) -> t = TTok k /\ amem k (st_tokens s) = true.
Proof. destruct t; cbn; try discriminate. destruct (amem k0 (st_tokens s)) eqn:E; [intros [= <-]; auto|discriminate]. Qed.
Lemma resolve_free s t : resolve s t = Some None -> t = TFree.
Proof. destruct t; cbn; try discriminate; [reflexivity|]. destruct (amem k (st_tokens s)); discriminate. Qed.

Lemma so_state_token s x : sess_state s x = CKS_RW_SO_FUNCTIONS -> exists t, alookup (s_tok x) (st_tokens s) = Some t.
Proof.
  intros H. apply sess_state_so in H. unfold tok_login in H. destruct (alookup (s_tok x) (st_tokens s)); [eauto|discriminate].
Qed.

(* tests that [break_match] left as boolean equations, in the form the rules state them *)
Ltac pos_hyps :=
  repeat match goal with
         | H : negb _ = false |- _ => apply negb_false_iff in H
         | H : negb _ = true |- _ => apply negb_true_iff in H
         | H : _ || _ = false |- _ => apply orb_false_iff in H; destruct H
         | H : (_ =? _) = true |- _ => apply N.eqb_eq in H
         | H : resolve _ _ = Some (Some _) |- _ => apply resolve_tok in H; destruct H
         | H : resolve _ _ = Some None |- _ => apply resolve_free in H
         end.

(* the calls that may answer CKR_OK and leave the state alone: they only read, or close the sessions of the
   free slot, which has none *)
Definition reads_only (o : op) : bool :=
  match o with OSInfo _ | OObjSize _ _ | OGetAttr _ _ _ | OCloseAll TFree => true | _ => false end.

Theorem step_cases (s : state) (o : op) :
  trans s o (fst (step s o)) (snd (step s o)) \/
  fst (step s o) = s /\ (rv_of (snd (step s o)) = Some CKR_OK -> reads_only o = true).
Proof.
  (* every path through [step]; those that return the state as it is go first: the call only reads, or its answer
     is not CKR_OK, or it is C_CloseAllSessions on the free slot *)
  destruct o; unfold step; cbn [fst snd];
    repeat (first [break_match | break_let]; cbn [fst snd]);
    try (right; split; [reflexivity|]; first [intros _; reflexivity | intros [= E]; try rewrite E in *; discriminate | pos_hyps; subst; reflexivity]);
    left; pos_hyps; subst.
  all: try (apply T_restart; constructor; assumption).
  (* the nineteen successful paths of an initialised library, in the order of [step] *)
  all: apply T_call; [assumption|]; rewrite ?upd_token_eq, ?upd_session_eq; unfold purge_handles; simp_state.
  - (* C_InitToken on a token *)
    match goal with H : alookup _ _ = Some ?t0 |- _ =>
      rewrite <- (lupd_found _ _ _ (fun t => mkToken (t_sopin t) None LNone (t_key t) []) H) end.
    eapply T_reinit; eassumption.
  - (* ... on the free slot *) apply T_newtoken; assumption.
  - (* C_OpenSession *)
    match goal with H : add_handle _ _ = _ |- _ => rewrite add_handle_eq in H; injection H as <- <- end.
    change (st_sessions (regs s ?l)) with (st_sessions s). apply T_open; assumption.
  - (* C_CloseSession, not the last *) eapply (T_close s); eassumption.
  - (* ... the last *) apply T_close_all. econstructor; eassumption.
  - (* C_CloseAllSessions *) apply T_close_all. constructor; assumption.
  - (* C_Login, SO *)
    eapply (T_token s (OLogin _ _ _)); [eassumption..|]. destruct (t_login t) eqn:?; try discriminate. constructor; assumption.
  - (* ... user *)
    eapply (T_token s (OLogin _ _ _)); [eassumption..|]. destruct (t_login t) eqn:?; try discriminate. econstructor; eassumption.
  - (* C_Logout *) eapply (T_logout s); eassumption.
  - (* C_InitPIN: the call does not look the token up, but an SO session has one *)
    destruct (so_state_token _ _ ltac:(eassumption)). eapply (T_token s (OInitPin _ _)); [eassumption..|]. constructor; assumption.
  - (* C_SetPIN, user *) eapply (T_token s (OSetPin _ _ _)); [eassumption..|]. econstructor; eassumption.
  - (* ... SO *) eapply (T_token s (OSetPin _ _ _)); [eassumption..|]. constructor; assumption.
  - (* C_CreateObject *)
    match goal with H : add_obj_handle _ _ _ _ _ = _ |- _ => rewrite store_new_eq, add_obj_handle_eq in H; injection H as <- <- end.
    apply (T_new s (OCreate _ _)); [assumption|constructor; assumption|assumption].
  - (* C_CopyObject *)
    match goal with H : add_obj_handle _ _ _ _ _ = _ |- _ => rewrite store_new_eq, add_obj_handle_eq in H; injection H as <- <- end.
    apply (T_new s (OCopy _ _ _)); [assumption|econstructor; eassumption|assumption].
  - (* C_DestroyObject *) eapply T_destroy; eassumption.
  - (* C_SetAttributeValue *) eapply T_setattr; eassumption.
  - (* C_FindObjectsInit *)
    match goal with H : find_loop _ _ _ _ _ _ _ _ = _ |- _ => destruct (find_loop_regs _ _ _ _ _ _ _ _ _ _ H) as (es & -> & Hes) end.
    change (st_sessions (regs s es)) with (st_sessions s). eapply T_findinit; eassumption.
  - (* C_FindObjects *) eapply (T_find s (OFind _ _)); [eassumption..|constructor].
  - (* C_FindObjectsFinal *) eapply (T_find s (OFindFinal _)); [eassumption..|constructor].
Qed.

Corollary step_trans (s : state) (o : op) : trans s o (fst (step s o)) (snd (step s o)) \/ fst (step s o) = s.
Proof. destruct (step_cases s o) as [T|[E _]]; auto. Qed.

Corollary step_ok (s : state) (o : op) :
  rv_of (snd (step s o)) = Some CKR_OK -> reads_only o = false -> trans s o (fst (step s o)) (snd (step s o)).
Proof. intros Hok Hr. destruct (step_cases s o) as [T|[_ H]]; [exact T|]. rewrite (H Hok) in Hr. discriminate. Qed.

Theorem trans_step (s : state) (o : op) (s' : state) (r : res) : trans s o s' r -> step s o = (s', r).
Proof.
  (* rule by rule, in the order of [changes]: the premises are the tests [step] makes on that path *)
  intros [o' b R|o' s1 r1 Hi C]; [destruct R as [|Hi|Hi]; unfold step; rewrite ?Hi; reflexivity|].
  destruct C as [k p t0 Ht Hb Hl Hp | p label Hm Hl | k flags Hm Hf rw Hrw | h x Hx Ho | o' k C | o' x t f Hx Ht U
                | h x Hx | o' x tok priv o1 Hx N Hw s2 | h oh x e loc ob Hx Ho Hw Hd | h oh x e loc ob tm o1 Hx Ho Hw Hm Hwf Hc Hs
                | h x tm prio es hs Hx Hop Hwf st pub Hf Hes | o' x f r' Hx Hop F].
  - unfold step, resolve, amem. rewrite Hi. rewrite Ht, Hb, Hl, Ht, N.eqb_refl, Hp. cbn [negb]. rewrite (lupd_found _ _ _ _ Ht). reflexivity.
  - unfold step. cbn [resolve]. rewrite Hi, Hl, Hm. reflexivity.
  - unfold step, resolve. rewrite Hi, Hm, Hf. fold rw. rewrite Hrw. reflexivity.
  - unfold step. rewrite Hi, Hx, Ho. reflexivity.
  - destruct C as [h x Hx Ho|k Hm]; unfold step, resolve; rewrite Hi, ?Hx, ?Ho, ?Hm; reflexivity.
  - rewrite <- upd_token_eq.
    destruct U as [h p Hl Hp Hro | h p up Hl Hup Hp | h p Hst Hlen | h po pn up Hlen Hst Hup Hp | h po pn Hlen Hst Hp];
      cbn [sess_of] in Hx; unfold step; rewrite Hi, Hx; cbn [negb]; cbv iota; rewrite ?Ht.
    + rewrite Hro, Hl, Hp. reflexivity.
    + rewrite Hl, Hup, Hp. reflexivity.
    + rewrite Hst, Hlen. reflexivity.
    + rewrite Hlen, Hst, Hup, Hp. reflexivity.
    + rewrite Hlen, Hst, Hp. reflexivity.
  - unfold step, logged_out. rewrite Hi, Hx, upd_token_eq. reflexivity.
  - subst s2.
    destruct N as [h tm o1 Hwf Hc Hn priv Hs|h oh e loc ob tm o1 Ho Hr Hcp Hwf Hc priv Hp tc up Hup Hs];
      cbn [sess_of] in *; unfold step; rewrite Hi, Hx; cbn [negb]; cbv iota.
    + rewrite Hwf, Hc, N.eqb_refl. cbn [negb]. fold priv. rewrite Hw, Hn, Hs, !N.eqb_refl. cbn [negb]. simp_state. rewrite store_new_eq, add_obj_handle_eq. reflexivity.
    + subst priv tc up. unfold copied in Hs. rewrite Ho, Hr, Hcp, Hwf, Hc, !N.eqb_refl. cbn [negb orb]. rewrite Hp, Hw, N.eqb_refl. cbn [negb].
      rewrite Hup, Hs, N.eqb_refl. cbn [negb]. simp_state. rewrite store_new_eq, add_obj_handle_eq. reflexivity.
  - unfold step. rewrite Hi, Hx, Ho, Hw, Hd, N.eqb_refl. reflexivity.
  - unfold step. rewrite Hi, Hx, Ho, Hw, Hm, Hwf, Hc, Hs, !N.eqb_refl. reflexivity.
  - unfold step. rewrite Hi, Hx, Hop, Hwf, N.eqb_refl. cbn [negb]. fold st pub. rewrite Hf, upd_session_eq. reflexivity.
  - destruct F; cbn [sess_of] in Hx; unfold step; rewrite Hi, Hx, Hop, N.eqb_refl, upd_session_eq; reflexivity.
Qed.

(* the transition of one given call: [inversion], then the rules that are for other calls are dismissed through
   their inner relation; one case is left when the call has one rule *)
Ltac trans_inv T :=
  inversion T as [? ? R|? ? ? ? C]; try solve [inversion R]; try (inversion C; subst); subst;
  try match goal with
      | H : closes_all _ _ _ |- _ => solve [inversion H]
      | H : tok_update _ _ _ _ _ |- _ => solve [inversion H]
      | H : new_object _ _ _ _ _ _ |- _ => solve [inversion H]
      | H : find_next _ _ _ _ |- _ => solve [inversion H]
      end.

Lemma step_close s h x :
  st_init s = true -> get_session s h = Some x ->
  step s (OClose h) = (if other_session_on s (s_tok x) h then close_one s h else close_all s (s_tok x), RRv CKR_OK).
Proof.
  intros Hi Hx. apply trans_step, T_call; [exact Hi|]. destruct (other_session_on s (s_tok x) h) eqn:E.
  - eapply T_close; eassumption.
  - apply T_close_all. econstructor; eassumption.
Qed.

Lemma step_closeall s k :
  st_init s = true -> amem k (st_tokens s) = true -> step s (OCloseAll (TTok k)) = (close_all s k, RRv CKR_OK).
Proof. intros Hi Hk. apply trans_step, T_call, T_close_all, C_all; assumption. Qed.

Lemma step_logout s h x :
  st_init s = true -> get_session s h = Some x -> step s (OLogout h) = (logged_out s (s_tok x), RRv CKR_OK).
Proof. intros Hi Hx. apply trans_step, T_call, T_logout; assumption. Qed.

Lemma step_destroy s h oh :
  snd (step s (ODestroy h oh)) = RRv CKR_OK ->
  exists e l ob, get_object s oh = Some (e, l, ob) /\
                 fst (step s (ODestroy h oh)) = del_object (set_handles s (aremove oh (st_handles s))) l.
Proof.
  intros Hok. pose proof (step_ok s (ODestroy h oh)) as T. rewrite Hok in T. specialize (T eq_refl eq_refl).
  trans_inv T. eauto.
Qed.

(* Cases on a transition, the new state in setter form.  Sixteen goals, numbered as the constructors of [tcase] stand:
   T_new is split by its flag [tok], T_destroy and T_setattr by the location of the object.  Each goal carries
   [at_case c] in its context; a proof that treats a case apart selects it by its number in this list and opens
   with [this_is c], which fails if the goal is another one.  Such proofs take the cases from the highest number
   down, so that closing or splitting one does not renumber those still to come; the cases a proof does not name go
   by one closing line.  A rule added to [changes] is best added at its end, and its case here. *)
Inductive tcase :=
  c_restart | c_reinit | c_newtoken | c_open | c_close | c_closeall | c_token | c_logout | c_new_tobj | c_new_sobj |
  c_destroy_tobj | c_destroy_sobj | c_setattr_tobj | c_setattr_sobj | c_findinit | c_find.
Inductive at_case : tcase -> Prop := case_tag c : at_case c.

Ltac this_is c := lazymatch goal with _ : at_case c |- _ => idtac | _ => fail "this goal is not the case" c end.

Ltac trans_cases T :=
  destruct T as [|? ? ? ? T]; [|destruct T as [| | | | | | | ? ? [] | ? ? ? ? [] | ? ? ? ? [] | |]];
  [ pose proof (case_tag c_restart) | pose proof (case_tag c_reinit) | pose proof (case_tag c_newtoken)
  | pose proof (case_tag c_open) | pose proof (case_tag c_close) | pose proof (case_tag c_closeall)
  | pose proof (case_tag c_token) | pose proof (case_tag c_logout) | pose proof (case_tag c_new_tobj)
  | pose proof (case_tag c_new_sobj) | pose proof (case_tag c_destroy_tobj) | pose proof (case_tag c_destroy_sobj)
  | pose proof (case_tag c_setattr_tobj) | pose proof (case_tag c_setattr_sobj) | pose proof (case_tag c_findinit)
  | pose proof (case_tag c_find) ];
  repeat match goal with x := _ |- _ => subst x end;
  rewrite ?close_all_eq, ?del_object_eq, ?put_object_eq; unfold store_new, close_one, logged_out; simp_state.

Lemma exec_cons s o ops : exec s (o :: ops) = exec (fst (step s o)) ops.
Proof. reflexivity. Qed.

Lemma exec_app (s : state) (a b : list op) : exec s (a ++ b) = exec (exec s a) b.
Proof. unfold exec. apply fold_left_app. Qed.

(* Histories: what holds of a state and of the calls still to come, and is handed on by every call, holds at the end. *)
Lemma exec_along (P : state -> list op -> Prop) :
  (forall s o r, P s (o :: r) -> P (fst (step s o)) r) -> forall ops s, P s ops -> P (exec s ops) [].
Proof. intros Hstep. induction ops as [|o r IH]; intros s H; [exact H|]. apply IH, Hstep, H. Qed.

Lemma exec_invariant (P : state -> Prop) :
  (forall s o, P s -> P (fst (step s o))) -> forall ops s, P s -> P (exec s ops).
Proof. intros Hstep ops. apply (exec_along (fun s _ => P s)). intros s o _. apply Hstep. Qed.

(* [quiet s ops] says what is asked of the state and of the calls still to come *)
Lemma exec_keeps_view {A} (view : state -> A) (quiet : state -> list op -> Prop) :
  (forall s o r, quiet s (o :: r) -> view (fst (step s o)) = view s /\ quiet (fst (step s o)) r) ->
  forall ops s, quiet s ops -> view (exec s ops) = view s.
Proof.
  intros Hstep ops s H. refine (proj2 (exec_along (fun s' r => quiet s' r /\ view s' = view s) _ ops s (conj H eq_refl))).
  intros s0 o r [Hq E]. destruct (Hstep s0 o r Hq) as [E' Hq']. split; [exact Hq'|congruence].
Qed.

(* a call that does not answer CKR_OK leaves the WHOLE model state as it was (C03 failure frame, C09) *)
Lemma fail_no_change (s : state) (o : op) (rv : N) :
  rv_of (snd (step s o)) = Some rv -> rv <> CKR_OK -> fst (step s o) = s.
Proof.
  intros Hrv Hne. destruct (step_trans s o) as [T|E]; [|exact E].
  apply trans_rv in T. congruence.
Qed.

