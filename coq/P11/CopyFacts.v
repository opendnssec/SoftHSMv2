(* P11/CopyFacts.v — C_CopyObject (SoftHSM.cpp), regenerated whole in effect mode (gen/Gen_Ops.v): which privacy and which
   storage the copy gets.  The copy's CKA_PRIVATE / CKA_TOKEN are the source's unless the template says otherwise; after the
   scan of the template (extractObjectInformation, havoc'ed) they are `hv1_isPrivate` / `hv1_isOnToken`.  Everything that is
   done TO THE COPY must use those - the store it is created in, the encryption flag handed to saveTemplate, the kind and the
   privacy of the handle that is registered for it - and never the source's (`wasPrivate`, `wasOnToken`).  The theorems say
   so in the form of non-interference: the function's result and effects do not change when the callees are replaced by
   ones that ignore the flag they are given and use the copy's.  (C01) *)
From Coq Require Import NArith Bool.
From SoftHSM Require Import Gen_Const Gen_Ops Wp.

Local Open Scope N_scope.

Definition copy_private (e : C_CopyObject.env) : bool := negb (C_CopyObject.hv1_isPrivate e =? 0).
Definition copy_on_token (e : C_CopyObject.env) : bool := negb (C_CopyObject.hv1_isOnToken e =? 0).

Theorem copy_uses_the_copys_privacy (e : C_CopyObject.env) :
  let pv := copy_private e in
  C_CopyObject.app e =
  C_CopyObject.app
    (C_CopyObject.set_newp11object_saveTemplate (fun tok _ t n op => C_CopyObject.newp11object_saveTemplate e tok pv t n op)
    (C_CopyObject.set_sessionObjectStore_createObject (fun sl h _ => C_CopyObject.sessionObjectStore_createObject e sl h pv)
    (C_CopyObject.set_handleManager_addTokenObject (fun sl _ o => C_CopyObject.handleManager_addTokenObject e sl pv o)
    (C_CopyObject.set_handleManager_addSessionObject (fun sl h _ o => C_CopyObject.handleManager_addSessionObject e sl h pv o) e)))).
Proof.
  (* Both sides are the regenerated function.  On the right the four callees ignore the privacy they are handed and use
     the copy's: the two are convertible because the code hands `negb (hv1_isPrivate =? 0)` to each of them; a call
     that passed the source's flag would leave two different terms. *)
  reflexivity.
Qed.

Theorem copy_uses_the_copys_storage (e : C_CopyObject.env) :
  C_CopyObject.app e =
  if copy_on_token e
  then C_CopyObject.app (C_CopyObject.set_sessionObjectStore_createObject (fun _ _ _ => 0) (C_CopyObject.set_handleManager_addSessionObject (fun _ _ _ _ => 0) e))
  else C_CopyObject.app (C_CopyObject.set_token_createObject 0 (C_CopyObject.set_handleManager_addTokenObject (fun _ _ _ => 0) e)).
Proof.
  unfold copy_on_token. destruct e. C_CopyObject.open_env. destruct (hv1_isOnToken =? 0); reflexivity.
Qed.

Lemma private_stays (x y : N) : negb (x =? 0) && negb (negb (y =? 0)) = false -> x <> 0 -> y <> 0.
Proof. intros H Hx. apply N.eqb_neq in Hx. rewrite Hx, negb_involutive in H. apply N.eqb_neq, H. Qed.

(* the access decisions: the SOURCE must be readable in this session, the COPY writable; a private object is never
   copied to a public one; CKA_COPYABLE false forbids *)
Theorem copy_access (e : C_CopyObject.env) :
  fst (C_CopyObject.app e) = CKR_OK ->
  let ogb := C_CopyObject.object_getBooleanValue e in
  C_CopyObject.haveRead e (C_CopyObject.session_getState e) (ogb CKA_TOKEN false) (ogb CKA_PRIVATE true) = CKR_OK /\
  C_CopyObject.haveWrite e (C_CopyObject.session_getState e) (C_CopyObject.hv1_isOnToken e) (C_CopyObject.hv1_isPrivate e) = CKR_OK /\
  ogb CKA_COPYABLE true <> 0 /\
  (ogb CKA_PRIVATE true <> 0 -> C_CopyObject.hv1_isPrivate e <> 0).
Proof.
  cbv zeta. wp_reach. cbv beta delta [C_CopyObject.app gen_SoftHSM__C_CopyObject].
  (* all four decisions are taken before the copy is created: the walk stops at the continuation that takes the new
     object *)
  repeat wp_step.
  (* A return before that point is a pair (code, effects), and the claim starts from its code being CKR_OK (Hx).  The
     code is a constant other than 0, or the answer rv of haveRead / haveWrite on the side where `negb (rv =? 0) = true`:
     with Hx : rv = 0 that test computes to false. *)
  all: try (constructor; intros Hx; first [discriminate Hx | cbn [fst] in Hx; rewrite Hx in *; discriminate]).
  reached. cbv [CKR_OK CKA_TOKEN CKA_PRIVATE CKA_COPYABLE]. guards. eauto using private_stays.
Qed.
