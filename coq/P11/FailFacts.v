(* P11/FailFacts.v — failing calls along a history (C09) *)
From Coq Require Import List NArith.
From SoftHSM Require Import Gen_Const Core.
Import ListNotations.
Local Open Scope N_scope.

Definition succeeded (s : state) (o : op) : bool :=
  match rv_of (snd (step s o)) with Some rv => rv =? CKR_OK | None => true end.
Fixpoint drop_failed (s : state) (ops : list op) : list op :=
  match ops with
  | [] => []
  | o :: r => if succeeded s o then o :: drop_failed (fst (step s o)) r else drop_failed s r
  end.

