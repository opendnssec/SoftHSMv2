(* P11/TokenFacts.v — token initialisation, re-initialisation and isolation between tokens.

   [tok_view s k] is everything the model holds for token k: the token record (SO PIN, user PIN, login
   state, master key identity, token objects), its sessions, its session objects and its handles.
   An operation that goes through a slot / session / object handle of token j leaves the view of every
   other token k untouched ([isolation]); C_InitToken on the free slot appends exactly one fresh token
   ([inittoken_fresh]); re-initialisation wipes the objects and the user PIN of that token only and
   keeps SO PIN and key ([reinit_step]; C14_reinit_ok_iff, C14_reinit_effect); a restart keeps PINs, key and
   objects of every token and drops logins, sessions, handles and session objects (C14_restart_keeps_tokens).

   [isolation] needs the linkage invariant [inv_tok] (handle keys and session-object ids are unique;
   the handle entry of a session carries the session's token; an object handle / a session object
   owned by a session carries that session's token).  It holds in every reachable state
   ([inv_tok_reachable]); without it the statement is false ([isolation_needs_inv_refuted]). *)
From Coq Require Import List NArith Bool Lia.
From SoftHSM Require Import Gen_Const Defs Core AssocFacts StepFacts HandleFacts.
Import ListNotations.
Local Open Scope N_scope.

Definition tok_view (s : state) (k : N) :=
  (alookup k (st_tokens s),
   filter (fun p => s_tok (snd p) =? k) (st_sessions s),
   filter (fun p => so_tok (snd p) =? k) (st_sobjs s),
   filter (fun p => h_tok (snd p) =? k) (st_handles s)).

Definition sess_on (s : state) (h j : N) : Prop := exists x, get_session s h = Some x /\ s_tok x = j.

(* an object handle that resolves denotes an object of token j: the handle entry AND, for a session
   object, the stored object *)
Definition handle_on (s : state) (oh j : N) : Prop :=
  forall e l o, get_object s oh = Some (e, l, o) ->
    h_tok e = j /\
    match l with
    | LTok k _ => k = j
    | LSess oid => forall so, alookup oid (st_sobjs s) = Some so -> so_tok so = j
    end.

Definition addresses (s : state) (o : op) (j : N) : Prop :=
  match o with
  | OInit | OFini | ONewProc => False
  | OInitToken t _ _ | OOpen t _ | OCloseAll t => resolve s t = Some (Some j)
  | OClose h | OSInfo h | OLogin h _ _ | OLogout h | OInitPin h _ | OSetPin h _ _ | OCreate h _
  | OFindInit h _ _ | OFind h _ | OFindFinal h => sess_on s h j
  | OCopy h oh _ | ODestroy h oh | OObjSize h oh | OGetAttr h oh _ | OSetAttr h oh _ | OUseInit _ h oh =>
      sess_on s h j /\ handle_on s oh j
  end.

Lemma tok_view_eq s s' k :
  alookup k (st_tokens s') = alookup k (st_tokens s) ->
  filter (fun p => s_tok (snd p) =? k) (st_sessions s') = filter (fun p => s_tok (snd p) =? k) (st_sessions s) ->
  filter (fun p => so_tok (snd p) =? k) (st_sobjs s') = filter (fun p => so_tok (snd p) =? k) (st_sobjs s) ->
  filter (fun p => h_tok (snd p) =? k) (st_handles s') = filter (fun p => h_tok (snd p) =? k) (st_handles s) ->
  tok_view s' k = tok_view s k.
Proof. unfold tok_view. intros -> -> -> ->. reflexivity. Qed.

Definition inv_sess_keys (s : state) : Prop := forall h, In h (akeys (st_sessions s)) -> h <= st_counter s.
Definition inv_sobj_keys (s : state) : Prop :=
  (forall i, In i (akeys (st_sobjs s)) -> i < st_next_oid s) /\ NoDup (akeys (st_sobjs s)).
Definition inv_link (s : state) : Prop :=
  (* the handle entry of a session carries the session's token *)
  (forall h e x, In (h, e) (st_handles s) -> In (h, x) (st_sessions s) -> h_tok e = s_tok x) /\
  (* the owner recorded in a handle entry is an already issued handle of the same token *)
  (forall oh e, In (oh, e) (st_handles s) ->
     h_sess e <= st_counter s /\ forall es, In (h_sess e, es) (st_handles s) -> h_tok es = h_tok e) /\
  (* the same for the owner recorded in a session object *)
  (forall oid so, In (oid, so) (st_sobjs s) ->
     so_sess so <= st_counter s /\ forall es, In (so_sess so, es) (st_handles s) -> h_tok es = so_tok so).
Definition inv_tok (s : state) : Prop := inv_handles s /\ inv_sess_keys s /\ inv_sobj_keys s /\ inv_link s.

(* [inv_tok s] is [inv_handles s /\ linked s]; the first part is kept by [step_inv_handles] *)
Definition linked (s : state) : Prop := inv_sess_keys s /\ inv_sobj_keys s /\ inv_link s.

Lemma linked_empty s : st_handles s = [] -> st_sessions s = [] -> st_sobjs s = [] -> linked s.
Proof.
  intros E1 E2 E3. unfold linked, inv_sess_keys, inv_sobj_keys, inv_link. rewrite E1, E2, E3. cbn.
  repeat split; try (intros; contradiction); constructor.
Qed.

Lemma inv_tok_init : inv_tok init_state.
Proof. split; [apply inv_handles_init|apply linked_empty; reflexivity]. Qed.

(* what [inv_link] asks of the owner [ow] recorded in an entry of token [tk]: it is an issued handle and,
   while live, one of token [tk] *)
Definition owner (s : state) (ow tk : N) : Prop :=
  ow <= st_counter s /\ forall e, In (ow, e) (st_handles s) -> h_tok e = tk.

Lemma owner_sub s s' ow tk :
  owner s ow tk -> st_counter s <= st_counter s' -> incl (st_handles s') (st_handles s) -> owner s' ow tk.
Proof. intros [A B] Hc Hh. split; [lia|]. intros e He. apply B, Hh, He. Qed.

Lemma owner_regs s es ow tk : owner s ow tk -> owner (regs s es) ow tk.
Proof.
  intros [A B]. split; [rewrite regs_counter; lia|]. intros e He. rewrite regs_handles in He.
  apply in_app_or in He. destruct He as [He|He]; [auto|]. apply In_akeys, number_keys in He. lia.
Qed.

Lemma owner_none s tk : inv_handles s -> owner s 0 tk.
Proof. intros [Hb _]. split; [lia|]. intros e He. apply In_akeys, Hb in He. lia. Qed.

Lemma get_session_In s h x : get_session s h = Some x -> In (h, x) (st_sessions s) /\ exists e, In (h, e) (st_handles s).
Proof.
  intros Hx. split; [apply alookup_In, get_session_lookup, Hx|]. unfold get_session in Hx.
  destruct (alookup h (st_handles s)) eqn:E; [eauto using alookup_In|discriminate].
Qed.

Lemma owner_session s h x : linked s -> get_session s h = Some x -> owner s h (s_tok x).
Proof.
  intros (Hs & _ & L1 & _) Hx. apply get_session_In in Hx. destruct Hx as [Hx _].
  split; [apply In_akeys, Hs in Hx; exact Hx|]. intros e He. eapply L1; eauto.
Qed.

Lemma linked_sub s s' :
  linked s -> st_counter s <= st_counter s' -> st_next_oid s <= st_next_oid s' ->
  incl (st_handles s') (st_handles s) -> keeps s_tok (st_sessions s) (st_sessions s') ->
  keeps (fun so => (so_tok so, so_sess so)) (st_sobjs s) (st_sobjs s') -> NoDup (akeys (st_sobjs s')) -> linked s'.
Proof.
  intros (Hs & [Ho _] & L1 & L2 & L3) Hc Hn Hh Hss Hso Hnd. split; [|split; [split; [|exact Hnd]|split; [|split]]].
  - intros h H. apply (keeps_akeys _ _ _ Hss), Hs in H. lia.
  - intros i H. apply (keeps_akeys _ _ _ Hso), Ho in H. lia.
  - intros h e x' H1 H2. apply Hh in H1. apply Hss in H2. destruct H2 as [x [H2 ->]]. eapply L1; eauto.
  - intros oh e H. apply Hh in H. exact (owner_sub _ _ _ _ (L2 oh e H) Hc Hh).
  - intros oid so' H. apply Hso in H. destruct H as [so [H [= -> ->]]]. exact (owner_sub _ _ _ _ (L3 oid so H) Hc Hh).
Qed.

Lemma linked_regs s es : linked s -> Forall (fun e => owner s (h_sess e) (h_tok e)) es -> linked (regs s es).
Proof.
  intros (Hs & Ho & L1 & L2 & L3) Hes. split; [|split; [exact Ho|split; [|split]]].
  - intros h H. apply Hs in H. rewrite regs_counter. lia.
  - intros h e x H1 H2. rewrite regs_handles in H1. apply in_app_or in H1. destruct H1 as [H1|H1]; [eapply L1; eauto|].
    apply In_akeys, number_keys in H1. apply In_akeys, Hs in H2. lia.
  - intros oh e H. apply owner_regs. rewrite regs_handles in H. apply in_app_or in H. destruct H as [H|H]; [exact (L2 oh e H)|].
    apply number_In in H. rewrite Forall_forall in Hes. exact (Hes e H).
  - intros oid so H. apply owner_regs, (L3 oid so H).
Qed.

Lemma linked_regs_for s es h x :
  inv_handles s -> linked s -> get_session s h = Some x -> Forall (reg_for (s_tok x) h) es -> linked (regs s es).
Proof.
  intros Hh Hl Hx Hes. apply linked_regs; [exact Hl|]. revert Hes. apply Forall_impl.
  intros e (_ & -> & [-> | ->]); [apply owner_none, Hh|apply owner_session; assumption].
Qed.

Lemma linked_open s x :
  inv_handles s -> linked s ->
  linked (set_sessions (regs s [sess_entry (s_tok x)]) (st_sessions s ++ [(st_counter s + 1, x)])).
Proof.
  intros Hh Hl. pose proof Hh as [Hb _].
  destruct (linked_regs s [sess_entry (s_tok x)] Hl) as (Hs & Ho & L1 & L23); [constructor; [apply owner_none, Hh|constructor]|].
  split; [|split; [exact Ho|split; [|exact L23]]]; unfold inv_sess_keys in *; simp_state.
  - intros h H. rewrite akeys_app in H. apply in_app_or in H. destruct H as [H|[<-|[]]]; [apply Hs, H|].
    rewrite regs_counter. cbn. lia.
  - intros h e x' H1 H2. apply in_app_or in H2. destruct H2 as [H2|[[= <- <-]|[]]]; [eapply L1; eauto|].
    rewrite regs_handles in H1. apply in_app_or in H1. destruct H1 as [H1|[[= <-]|[]]]; [|reflexivity].
    apply In_akeys, Hb in H1. lia.
Qed.

Create HintDb tok.
#[local] Hint Resolve N.le_refl incl_refl incl_filter keeps_refl keeps_filter keeps_lupd NoDup_akeys_filter : tok.

Lemma linked_new s h x tok priv o1 :
  inv_handles s -> linked s -> get_session s h = Some x ->
  let s2 := store_new s (s_tok x) h tok priv o1 in
  linked (regs s2 (obj_regs s2 (s_tok x) (if tok then CK_INVALID_HANDLE else h) priv (st_next_oid s))).
Proof.
  intros Hh Hl Hx s2. apply linked_regs_for with h x; [exact Hh| |exact Hx|apply obj_regs_for].
  pose proof Hl as (Hs & [Ho Hond] & L1 & L2 & L3). subst s2. unfold store_new. destruct tok.
  - apply linked_sub with s; simp_state; auto with tok. lia.
  - split; [exact Hs|split; [split|split; [exact L1|split; [exact L2|]]]]; simp_state.
    + intros i H. rewrite akeys_app in H. apply in_app_or in H. destruct H as [H|[<-|[]]]; [apply Ho in H|cbn]; lia.
    + rewrite akeys_app. apply NoDup_snoc; [exact Hond|]. intro H. apply Ho in H. cbn in H. lia.
    + intros oid so H. apply in_app_or in H. destruct H as [H|[[= <- <-]|[]]]; [exact (L3 oid so H)|].
      exact (owner_session s h x Hl Hx).
Qed.

Lemma step_linked s o : inv_handles s -> linked s -> linked (fst (step s o)).
Proof.
  intros Hh Hl. destruct (step_trans s o) as [T | ->]; [|exact Hl].
  pose proof Hl as (_ & [_ Hnd] & _).
  trans_cases T.
  (* a search registers what it finds and keeps the list in its session *)
  16: { this_is c_find. match goal with F : find_next _ _ _ _ |- _ => pose proof (fun y => proj1 (find_next_keeps _ _ _ _ F y)) as Hf end.
        apply linked_sub with s; simp_state; auto with tok. }
  15: { this_is c_findinit. apply linked_sub with (regs s es); [eapply linked_regs_for; eassumption|..]; simp_state; auto with tok. }
  10: { this_is c_new_sobj. apply (linked_new s (sess_of o) x false); assumption. }
  9: { this_is c_new_tobj. apply (linked_new s (sess_of o) x true); assumption. }
  4: { this_is c_open. exact (linked_open s (mkSession k _ _ _) Hh Hl). }
  1: { this_is c_restart. apply linked_empty; reflexivity. }
  (* the other calls delete entries or replace them by entries with the same token and owner *)
  all: apply linked_sub with s; unfold aremove; simp_state; rewrite ?akeys_lupd; auto with tok.
Qed.

Lemma step_inv_tok s o : inv_tok s -> inv_tok (fst (step s o)).
Proof. intros [Hh Hl]. split; [apply step_inv_handles, Hh|exact (step_linked s o Hh Hl)]. Qed.

Theorem exec_inv_tok ops : forall s, inv_tok s -> inv_tok (exec s ops).
Proof. apply exec_invariant, step_inv_tok. Qed.

Theorem inv_tok_reachable ops : inv_tok (exec init_state ops).
Proof. apply exec_inv_tok, inv_tok_init. Qed.

Lemma inv_session_handle s h x e :
  inv_tok s -> get_session s h = Some x -> In (h, e) (st_handles s) -> h_tok e = s_tok x.
Proof. intros (_ & _ & _ & L1 & _) Hx He. apply get_session_In in Hx. destruct Hx as [Hx _]. exact (L1 _ _ _ He Hx). Qed.

Lemma owner_tok s h x tk : inv_tok s -> get_session s h = Some x -> owner s h tk -> tk = s_tok x.
Proof.
  intros Hinv Hx [_ B]. destruct (get_session_In _ _ _ Hx) as [_ [e0 He0]].
  rewrite <- (B e0 He0). eapply inv_session_handle; eauto.
Qed.

Lemma inv_owned_handle s h x oh e :
  inv_tok s -> get_session s h = Some x -> In (oh, e) (st_handles s) -> h_sess e = h -> h_tok e = s_tok x.
Proof.
  intros Hinv Hx He <-. eapply owner_tok; [exact Hinv|exact Hx|]. destruct Hinv as (_ & _ & _ & _ & L2 & _). exact (L2 oh e He).
Qed.

Lemma inv_owned_sobj s h x oid so :
  inv_tok s -> get_session s h = Some x -> In (oid, so) (st_sobjs s) -> so_sess so = h -> so_tok so = s_tok x.
Proof.
  intros Hinv Hx Hso <-. eapply owner_tok; [exact Hinv|exact Hx|]. destruct Hinv as (_ & _ & _ & _ & _ & L3). exact (L3 oid so Hso).
Qed.

Lemma inv_session_unique_tok s h x x' :
  inv_tok s -> get_session s h = Some x -> In (h, x') (st_sessions s) -> s_tok x' = s_tok x.
Proof.
  intros Hinv Hx Hx'. destruct (get_session_In _ _ _ Hx) as [_ [e0 He0]].
  rewrite <- (inv_session_handle _ _ _ _ Hinv Hx He0). destruct Hinv as (_ & _ & _ & L1 & _). symmetry. exact (L1 _ _ _ He0 Hx').
Qed.

(* the session a call goes through is on the token the call addresses; a call that goes through none
   has [sess_of] 0, which is never a handle *)
Lemma addresses_session s o j x : inv_handles s -> addresses s o j -> get_session s (sess_of o) = Some x -> s_tok x = j.
Proof.
  intros [Hb _] Ha Hx. assert (H0 : sess_of o <> 0).
  { intros E. rewrite E in Hx. apply get_session_In in Hx. destruct Hx as [_ [e He]]. apply In_akeys, Hb in He. lia. }
  assert (Hs : sess_on s (sess_of o) j) by (destruct o; cbn [addresses sess_of] in *; tauto).
  destruct Hs as (x' & Hx' & <-). congruence.
Qed.

Lemma off_number j k l c es : j <> k -> Forall (fun e => h_tok e = j) es ->
  filter (fun p => h_tok (snd p) =? k) (l ++ number c es) = filter (fun p => h_tok (snd p) =? k) l.
Proof.
  intros Hne H. apply (off_app h_tok j k Hne). apply Forall_forall. intros [h e] Hin. apply number_In in Hin.
  revert e Hin. apply Forall_forall, H.
Qed.

Lemma off_sess_lupd s h x f k :
  get_session s h = Some x -> s_tok x <> k -> (forall y, s_tok (f y) = s_tok y) ->
  filter (fun p => s_tok (snd p) =? k) (lupd h f (st_sessions s)) = filter (fun p => s_tok (snd p) =? k) (st_sessions s).
Proof.
  intros Hx Hne Hf. apply (off_lupd s_tok (s_tok x) k Hne). intros v Hv.
  apply get_session_lookup in Hx. rewrite Hf. split; congruence.
Qed.

#[local] Hint Resolve alookup_lupd_neq off_filter_tok off_number reg_for_tok obj_regs_tok off_sess_lupd off_aremove
  off_app : tok.
#[local] Hint Extern 1 (_ <> _) => congruence : tok.

Theorem isolation_any (s : state) (o : op) (j k : N) :
  inv_tok s -> addresses s o j -> j <> k -> tok_view (fst (step s o)) k = tok_view s k.
Proof.
  intros Hinv Ha Hne. destruct (step_trans s o) as [T | ->]; [|reflexivity].
  pose proof Hinv as ([_ Hnd] & _ & [_ Hond] & _).
  pose proof (fun x => addresses_session s o j x (proj1 Hinv) Ha) as Hs.
  trans_cases T.
  (* first what [addresses] says in each case: an object handle denotes an object on j; a call through a slot names
     j; a restart and a new token address no token; a call through a session x: j is its token (the line with Hs) *)
  16: (this_is c_find; match goal with F : find_next _ _ _ _ |- _ => destruct F end).
  11-14: match goal with Ho : get_object _ _ = _ |- _ =>
           destruct (proj2 Ha _ _ _ Ho) as [He Hl]; destruct (get_object_inv _ _ _ _ _ Ho) as [Hoh Hloc] end.
  6: (this_is c_closeall; match goal with C : closes_all _ _ _ |- _ => destruct C; [|apply resolve_tok in Ha as [[= ->] _]] end).
  4: (this_is c_open; apply resolve_tok in Ha as [[= ->] _]).
  3: { this_is c_newtoken. discriminate Ha. }
  2: (this_is c_reinit; apply resolve_tok in Ha as [[= ->] _]).
  1: { this_is c_restart. match goal with R : restarts _ _ _ |- _ => destruct R; destruct Ha end. }
  all: try match goal with Hx : get_session _ _ = Some _ |- _ => destruct (Hs _ Hx) end.
  (* what is changed, removed or added carries token j itself in most cases *)
  all: apply tok_view_eq; unfold regs; simp_state; try reflexivity; eauto with tok.
  1-5: unfold aremove; apply (off_filter _ _ _ Hne); intros [i v] Hin E; apply negb_false_iff in E; cbn [fst snd] in *.
  (* C_CloseSession: what goes with the session is on its token by the invariant *)
  - this_is c_close. apply N.eqb_eq in E. subst i. eapply inv_session_unique_tok; eauto.
  - this_is c_close. apply N.eqb_eq in E. eapply inv_owned_sobj; eauto.
  - this_is c_close. apply orb_true_iff in E. destruct E as [E|E].
    + apply N.eqb_eq in E. subst i. eapply inv_session_handle; eauto.
    + apply andb_true_iff, proj2, N.eqb_eq in E. eapply inv_owned_handle; eauto.
  (* C_Logout: the private objects of the session's token *)
  - this_is c_logout. apply andb_true_iff, proj1, N.eqb_eq in E. exact E.
  - this_is c_logout. apply andb_true_iff, proj1, andb_true_iff, proj2, N.eqb_eq in E. exact E.
  (* C_DestroyObject, C_SetAttributeValue on a session object: it is on token j by [handle_on] *)
  - this_is c_destroy_sobj. destruct Hloc as (so & Hso & _). eapply off_aremove; eauto.
  - this_is c_setattr_sobj. apply (off_lupd so_tok _ _ Hne). intros so Hso. split; exact (Hl so Hso).
Qed.

Theorem isolation (s : state) (o : op) (j k : N) :
  inv_tok s -> st_init s = true -> addresses s o j -> j <> k ->
  tok_view (fst (step s o)) k = tok_view s k.
Proof. intros Hinv _. apply isolation_any, Hinv. Qed.

(* the invariant is a real hypothesis: in an (unreachable) state whose session handle entry carries
   another token than the session, closing the session removes a handle of that other token *)
Lemma isolation_needs_inv_refuted :
  exists s o j k, st_init s = true /\ addresses s o j /\ j <> k /\ tok_view (fst (step s o)) k <> tok_view s k.
Proof.
  exists (mkState true [(0, mkToken [1;2;3;4] None LNone 1 []); (1, mkToken [1;2;3;4] None LNone 2 [])]
            [(1, mkSession 0 true 0 []); (2, mkSession 0 true 0 [])]
            [(1, mkHandle CKH_SESSION 1 0 false 0); (2, mkHandle CKH_SESSION 0 0 false 0)] 2 [] 1 3),
         (OClose 1), 0, 1.
  split; [reflexivity|]. split; [exists (mkSession 0 true 0 []); split; reflexivity|]. split; [discriminate|].
  vm_compute. discriminate.
Qed.

Corollary isolation_reachable (ops : list op) (o : op) (j k : N) :
  let s := exec init_state ops in
  st_init s = true -> addresses s o j -> j <> k -> tok_view (fst (step s o)) k = tok_view s k.
Proof. intros s. apply isolation. apply inv_tok_reachable. Qed.

Fixpoint addresses_other (s : state) (ops : list op) (k : N) : Prop :=
  match ops with
  | [] => True
  | o :: r => (exists j, addresses s o j /\ j <> k) /\ addresses_other (fst (step s o)) r k
  end.

Lemma addresses_not_restart s o j : addresses s o j -> is_restart o = false.
Proof. destruct o; cbn; intros H; try contradiction; reflexivity. Qed.

Theorem isolation_trace (ops : list op) : forall (s : state) (k : N),
  inv_tok s -> addresses_other s ops k -> tok_view (exec s ops) k = tok_view s k.
Proof.
  intros s k Hinv Ha. apply (exec_keeps_view (fun s => tok_view s k) (fun s ops => inv_tok s /\ addresses_other s ops k)); [|auto].
  intros s0 o r [Hi [[j [Hj Hne]] Hr]]. split; [eapply isolation_any; eauto|split; [apply step_inv_tok, Hi|exact Hr]].
Qed.

Theorem inittoken_fresh (s : state) (p : bytes) (label : N) :
  st_init s = true -> amem label (st_tokens s) = false -> pin_len_ok (blen p) = true ->
  let r := step s (OInitToken TFree (Some p) label) in
  snd r = RRv CKR_OK /\
  st_tokens (fst r) = st_tokens s ++ [(label, mkToken p None LNone (st_next_key s) [])] /\
  (forall k, k <> label -> tok_view (fst r) k = tok_view s k).
Proof.
  intros Hi Hm Hl. cbv zeta. rewrite (trans_step _ _ _ _ (T_call _ _ _ _ Hi (T_newtoken s p label Hm Hl))). cbn [fst snd].
  split; [reflexivity|]. split; [reflexivity|]. intros k Hne.
  apply tok_view_eq; simp_state; try reflexivity.
  rewrite alookup_app. destruct (alookup k (st_tokens s)); [reflexivity|]. cbn.
  rewrite (neq_eqb_false label k) by congruence. reflexivity.
Qed.

Corollary inittoken_fresh_lookup (s : state) (p : bytes) (label : N) :
  st_init s = true -> amem label (st_tokens s) = false -> pin_len_ok (blen p) = true ->
  alookup label (st_tokens (fst (step s (OInitToken TFree (Some p) label)))) = Some (mkToken p None LNone (st_next_key s) []).
Proof.
  intros Hi Hm Hl. destruct (inittoken_fresh s p label Hi Hm Hl) as (_ & E & _). rewrite E, alookup_app.
  unfold amem in Hm. destruct (alookup label (st_tokens s)); [discriminate|]. cbn. rewrite N.eqb_refl. reflexivity.
Qed.

Lemma reinit_step (s : state) (k : N) (p : bytes) (t0 : token) :
  st_init s = true -> alookup k (st_tokens s) = Some t0 ->
  step s (OInitToken (TTok k) (Some p) k) =
  if existsb (fun q => s_tok (snd q) =? k) (st_sessions s) then (s, RRv CKR_SESSION_EXISTS)
  else if negb (pin_len_ok (blen p)) then (s, RRv CKR_PIN_INCORRECT)
  else if pin_ok (t_sopin t0) p
       then (set_tokens s (aset k (mkToken (t_sopin t0) None LNone (t_key t0) []) (st_tokens s)), RRv CKR_OK)
       else (s, RRv CKR_PIN_INCORRECT).
Proof.
  intros Hi Ht. unfold step. rewrite Hi. cbn [negb resolve]. cbv iota. unfold amem. rewrite Ht. cbv iota.
  rewrite Ht, N.eqb_refl. cbn [negb]. reflexivity.
Qed.

Corollary reinit_refused_no_change (s : state) (k : N) (p : bytes) (t0 : token) :
  st_init s = true -> alookup k (st_tokens s) = Some t0 ->
  snd (step s (OInitToken (TTok k) (Some p) k)) <> RRv CKR_OK -> fst (step s (OInitToken (TTok k) (Some p) k)) = s.
Proof.
  intros Hi Ht. rewrite (reinit_step s k p t0 Hi Ht).
  (* the three tests in the order the call makes them: a session open, the PIN's length, the SO PIN; each refusal
     answers with s itself, and the one acceptance contradicts the hypothesis *)
  destruct (existsb _ (st_sessions s)); [reflexivity|].
  destruct (pin_len_ok (blen p)); [|reflexivity].
  destruct (pin_ok (t_sopin t0) p); [|reflexivity].
  intros []. reflexivity.
Qed.

(* for concrete states: with this, [handle_on] is established by evaluating GOALS ([vm_compute] on a goal is
   checked fast; what [vm_compute in H] does to a hypothesis is re-checked by Qed with the slow reduction) *)
Lemma handle_on_intro s oh j e l o :
  get_object s oh = Some (e, l, o) -> h_tok e = j ->
  match l with LTok k _ => k = j | LSess oid => forall so, alookup oid (st_sobjs s) = Some so -> so_tok so = j end ->
  handle_on s oh j.
Proof. intros H He Hl e' l' o' H'. rewrite H in H'. injection H' as <- <- <-. auto. Qed.

(* the hypotheses of [isolation] are satisfiable: two tokens, a session and an object on each *)
Definition iso_pin : bytes := [49; 50; 51; 52].
Definition iso_tmpl (tok : N) : template :=
  [mkT CKA_CLASS (Some (le_encode 8 CKO_DATA)) 8; mkT CKA_TOKEN (Some [tok]) 1; mkT CKA_PRIVATE (Some [0]) 1;
   mkT CKA_VALUE (Some [7; 7]) 2].
Definition iso_ops : list op :=
  [OInit; OInitToken TFree (Some iso_pin) 0; OInitToken TFree (Some iso_pin) 1;
   OOpen (TTok 0) 6; OOpen (TTok 1) 6;
   OCreate 1 (iso_tmpl 1); OCreate 1 (iso_tmpl 0); OCreate 2 (iso_tmpl 1); OCreate 2 (iso_tmpl 0)].
Definition iso_state : state := exec init_state iso_ops.

Example isolation_example :
  st_init iso_state = true /\
  amem 0 (st_tokens iso_state) = true /\ amem 1 (st_tokens iso_state) = true /\
  (* destroying the session object of token 0 through its own session and handle addresses token 0 ... *)
  addresses iso_state (ODestroy 1 4) 0 /\ 0 <> 1 /\
  snd (step iso_state (ODestroy 1 4)) = RRv CKR_OK /\
  (* ... changes token 0 ... *)
  tok_view (fst (step iso_state (ODestroy 1 4))) 0 <> tok_view iso_state 0 /\
  (* ... and nothing of token 1, whose view is not empty *)
  tok_view (fst (step iso_state (ODestroy 1 4))) 1 = tok_view iso_state 1 /\
  length (snd (tok_view iso_state 1)) = 3%nat /\
  addresses iso_state (OLogin 1 CKU_SO (Some iso_pin)) 0 /\
  addresses iso_state (OInitToken (TTok 0) (Some iso_pin) 0) 0 /\
  addresses iso_state (OSetAttr 2 5 []) 1.
Proof.
  assert (S1 : sess_on iso_state 1 0) by (eexists; split; vm_compute; reflexivity).
  assert (S2 : sess_on iso_state 2 1) by (eexists; split; vm_compute; reflexivity).
  assert (O4 : handle_on iso_state 4 0).
  { eapply handle_on_intro; [vm_compute; reflexivity|reflexivity|]. vm_compute. intros so [= <-]. reflexivity. }
  assert (O5 : handle_on iso_state 5 1) by (eapply handle_on_intro; [vm_compute; reflexivity|reflexivity..]).
  split; [vm_compute; reflexivity|]. split; [vm_compute; reflexivity|]. split; [vm_compute; reflexivity|].
  split; [exact (conj S1 O4)|]. split; [discriminate|]. split; [vm_compute; reflexivity|]. split; [vm_compute; discriminate|].
  split; [vm_compute; reflexivity|]. split; [vm_compute; reflexivity|]. split; [exact S1|]. split; [vm_compute; reflexivity|].
  exact (conj S2 O5).
Qed.

(* and, by the theorem instead of by computation, for every continuation that stays on token 0 *)
Example isolation_example_thm (o : op) :
  addresses iso_state o 0 -> tok_view (fst (step iso_state o)) 1 = tok_view iso_state 1.
Proof.
  intros Ha. apply isolation_any with (j := 0); [exact (inv_tok_reachable iso_ops)|exact Ha|discriminate].
Qed.
