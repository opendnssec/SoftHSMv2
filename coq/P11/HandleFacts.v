(* P11/HandleFacts.v — handles of the core model: one monotone counter, fresh keys, and what a call does to the
   handle table ([handles_step]: it erases entries and registers new ones above the counter).  (C11) *)
From Coq Require Import List NArith Lia.
From SoftHSM Require Import Defs Core AssocFacts StepFacts.
Import ListNotations.
Local Open Scope N_scope.

Definition is_restart (o : op) : bool := match o with OInit | OFini | ONewProc => true | _ => false end.

Definition inv_handles (s : state) : Prop :=
  (forall h, In h (akeys (st_handles s)) -> 1 <= h <= st_counter s) /\ NoDup (akeys (st_handles s)).

Lemma inv_handles_init : inv_handles init_state.
Proof. split; [intros h []|constructor]. Qed.

Definition hext (s s' : state) : Prop :=
  st_counter s <= st_counter s' /\
  forall h e, alookup h (st_handles s') = Some e -> alookup h (st_handles s) = Some e \/ st_counter s < h.

Definition handles_step (s s' : state) : Prop :=
  exists f es, st_handles s' = filter f (st_handles s) ++ number (st_counter s) es /\
               st_counter s' = st_counter s + N.of_nat (length es).

Lemma handles_same s s' : st_handles s' = st_handles s -> st_counter s' = st_counter s -> handles_step s s'.
Proof. intros E1 E2. exists (fun _ => true), []. rewrite filter_true, app_nil_r, N.add_0_r. auto. Qed.
Lemma handles_filter s s' f : st_handles s' = filter f (st_handles s) -> st_counter s' = st_counter s -> handles_step s s'.
Proof. intros E1 E2. exists f, []. rewrite app_nil_r, N.add_0_r. auto. Qed.
Lemma handles_regs s s' es :
  st_handles s' = st_handles s ++ number (st_counter s) es -> st_counter s' = st_counter s + N.of_nat (length es) -> handles_step s s'.
Proof. intros E1 E2. exists (fun _ => true), es. rewrite filter_true. auto. Qed.

Lemma add_handle_counter s e : st_counter (fst (add_handle s e)) = st_counter s + 1 /\ snd (add_handle s e) = st_counter s + 1.
Proof. unfold add_handle. cbn. auto. Qed.

Lemma restarts_is_restart s o b : restarts s o b -> is_restart o = true.
Proof. intros []; reflexivity. Qed.

Create HintDb handles.
#[local] Hint Resolve handles_same handles_filter handles_regs : handles.
#[local] Hint Extern 1 (_ = _) => state_eq : handles.

Lemma trans_handles s o s' r : trans s o s' r -> (is_restart o = true /\ exists b, s' = restart s b) \/ handles_step s s'.
Proof.
  intros T. trans_cases T; [left; eauto using restarts_is_restart|right; eauto with handles..].
Qed.

Lemma handles_step_inv s s' : handles_step s s' -> inv_handles s -> inv_handles s' /\ hext s s'.
Proof.
  intros (f & es & E1 & E2) [Hb Hnd]. unfold inv_handles, hext. rewrite E1, E2. split; split.
  - intros h H. rewrite akeys_app in H. apply in_app_or in H. destruct H as [H|H].
    + apply akeys_filter, Hb in H. lia.
    + apply number_keys in H. lia.
  - rewrite akeys_app. apply NoDup_app; [apply NoDup_akeys_filter, Hnd|apply number_NoDup|].
    intros h H1 H2. apply akeys_filter, Hb in H1. apply number_keys in H2. lia.
  - lia.
  - intros h e H. rewrite alookup_app in H. destruct (alookup h (filter f (st_handles s))) eqn:E.
    + left. rewrite <- H. eapply alookup_filter_sub; eauto.
    + right. apply alookup_keys, number_keys in H. lia.
Qed.

Lemma step_inv_handles s o : inv_handles s -> inv_handles (fst (step s o)) /\ (is_restart o = false -> hext s (fst (step s o))).
Proof.
  intros Hinv. destruct (step_trans s o) as [T | ->]; [|split; [exact Hinv|split; [lia|auto]]].
  destruct (trans_handles _ _ _ _ T) as [[Hr [b ->]]|H].
  - split; [apply inv_handles_init|congruence].
  - destruct (handles_step_inv _ _ H Hinv). auto.
Qed.

(* C11: while the library stays initialised a valid handle always denotes the same session or object *)
Theorem denotation_stable s o h e e' :
  inv_handles s -> is_restart o = false ->
  alookup h (st_handles s) = Some e -> alookup h (st_handles (fst (step s o))) = Some e' -> e' = e.
Proof.
  intros Hinv Hr H1 H2. destruct (proj2 (step_inv_handles s o Hinv) Hr) as [_ Hx]. apply Hx in H2. destruct H2 as [H2|H2].
  - congruence.
  - exfalso. destruct Hinv as [Hb _]. apply alookup_keys in H1. apply Hb in H1. lia.
Qed.

(* ... and a handle that was ever dead stays dead: a new entry appears only above the old counter *)
Theorem dead_stays_dead s o h :
  inv_handles s -> is_restart o = false -> h <= st_counter s ->
  alookup h (st_handles s) = None -> alookup h (st_handles (fst (step s o))) = None.
Proof.
  intros Hinv Hr Hle H1. destruct (proj2 (step_inv_handles s o Hinv) Hr) as [_ Hx].
  destruct (alookup h (st_handles (fst (step s o)))) eqn:E; [|reflexivity].
  apply Hx in E. destruct E as [E|E]; [congruence|lia].
Qed.

Fixpoint no_restart (ops : list op) : bool := match ops with [] => true | o :: r => negb (is_restart o) && no_restart r end.

Lemma exec_inv_handles ops : forall s, inv_handles s -> inv_handles (exec s ops).
Proof. apply exec_invariant. intros s o H. apply step_inv_handles, H. Qed.

Lemma open_handle_fresh s t flags h :
  snd (step s (OOpen t flags)) = RHandle h -> h = st_counter s + 1 /\ alookup h (st_handles s) = None \/ ~ inv_handles s.
Proof.
  intros E. pose proof (step_ok s (OOpen t flags)) as T. rewrite E in T. specialize (T eq_refl eq_refl). trans_inv T.
  destruct (alookup (st_counter s + 1) (st_handles s)) eqn:El; [right|left; auto].
  intros [Hb _]. apply alookup_keys, Hb in El. lia.
Qed.

