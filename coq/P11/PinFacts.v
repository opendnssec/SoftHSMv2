(* P11/PinFacts.v — only the current PIN authenticates; PIN changes are exact and lossless (C04).
   PINs are ghost byte strings of the token (symbolic cryptography, DESIGN.md §3): the SO blob is
   "wrap (pbkdf sopin) (master key)", and [pin_ok stored given] is its successful unwrapping.
   [trans_token] says what any call does to the entry of one token; that only certain calls change its
   PINs, or its objects (PersistFacts.v), is read off from it. *)
From Coq Require Import List NArith.
From SoftHSM Require Import Gen_Const Defs Core AssocFacts AccessFacts StepFacts.
Import ListNotations.
Local Open Scope N_scope.

Definition tok_pins (s : state) (k : N) : option (bytes * option bytes * N) :=
  match alookup k (st_tokens s) with Some t => Some (t_sopin t, t_userpin t, t_key t) | None => None end.
Definition tok_objs (s : state) (k : N) : option (list (N * obj)) :=
  match alookup k (st_tokens s) with Some t => Some (t_objs t) | None => None end.

(* [tok_effect s k o r f]: call o, answering r, MAY apply f to the entry of token k - an upper bound: keeping
   the entry and logging out are allowed to every call (which calls do log out is not said here), the
   other effects name their call: C_InitToken on k empties it; logins and PIN changes go through a session
   of k; so does a new token object; an object is destroyed or rewritten in the token its handle resolves to. *)
Inductive tok_effect (s : state) (k : N) : op -> res -> (token -> token) -> Prop :=
| E_none o r : tok_effect s k o r (fun t => t)
| E_logged_out o r : tok_effect s k o r (fun t => set_t_login t LNone)
| E_reinit p : tok_effect s k (OInitToken (TTok k) (Some p) k) (RRv CKR_OK) (fun t => mkToken (t_sopin t) None LNone (t_key t) [])
| E_update o x t f :
    get_session s (sess_of o) = Some x -> s_tok x = k -> tok_update s x t o f -> tok_effect s k o (RRv CKR_OK) f
| E_new o x priv o1 hh :
    get_session s (sess_of o) = Some x -> s_tok x = k -> new_object s x o true priv o1 ->
    tok_effect s k o (RHandle hh) (fun t => set_t_objs t (t_objs t ++ [(st_next_oid s, o1)]))
| E_destroy h oh e oid ob :
    get_object s oh = Some (e, LTok k oid, ob) ->
    tok_effect s k (ODestroy h oh) (RRv CKR_OK) (fun t => set_t_objs t (aremove oid (t_objs t)))
| E_setattr h oh e oid ob tm o1 :
    get_object s oh = Some (e, LTok k oid, ob) ->
    tok_effect s k (OSetAttr h oh tm) (RRv CKR_OK) (fun t => set_t_objs t (aset oid o1 (t_objs t))).

Definition tok_step (s : state) (k : N) (o : op) (r : res) (s' : state) : Prop :=
  (exists f, tok_effect s k o r f /\ alookup k (st_tokens s') = option_map f (alookup k (st_tokens s))) \/
  (exists p, o = OInitToken TFree (Some p) k /\ r = RRv CKR_OK /\ alookup k (st_tokens s) = None /\
             alookup k (st_tokens s') = Some (mkToken p None LNone (st_next_key s) [])).

Lemma tok_step_same s s' k o r : alookup k (st_tokens s') = alookup k (st_tokens s) -> tok_step s k o r s'.
Proof. intros E. left. exists (fun t => t). split; [constructor|]. rewrite E. destruct (alookup k (st_tokens s)); reflexivity. Qed.

Lemma tok_step_lupd s s' k o r j f :
  st_tokens s' = lupd j f (st_tokens s) -> (j = k -> tok_effect s k o r f) -> tok_step s k o r s'.
Proof.
  intros E H. destruct (N.eqb_spec j k) as [->|Hne].
  - left. exists f. split; [auto|]. rewrite E, alookup_lupd, N.eqb_refl. reflexivity.
  - apply tok_step_same. rewrite E, alookup_lupd, (neq_eqb_false _ _ Hne). reflexivity.
Qed.

Theorem trans_token s o s' r k : trans s o s' r -> tok_step s k o r s'.
Proof.
  intros T. trans_cases T.
  3: { (* a new token under a free label *)
    this_is c_newtoken. simp_state. unfold amem in *. destruct (alookup label (st_tokens s)) eqn:E; [discriminate|].
    destruct (N.eqb_spec label k) as [<-|Hne].
    - right. exists p. simp_state. rewrite alookup_app, E. cbn. rewrite N.eqb_refl. auto.
    - apply tok_step_same. simp_state. rewrite alookup_app. destruct (alookup k (st_tokens s)); [reflexivity|].
      cbn. rewrite (neq_eqb_false _ _ Hne). reflexivity. }
  1: { this_is c_restart. left. exists (fun t => set_t_login t LNone). split; [constructor|apply restart_lookup]. }
  (* sessions, searches and session objects are not in the token table: the entry stays; the other transitions change
     the entry under one key, by the function that the matching rule of [tok_effect] names *)
  all: first [ apply tok_step_same; state_eq
             | eapply tok_step_lupd; [state_eq|intros <-; econstructor; eassumption || reflexivity] ].
Qed.

Corollary step_token s o k s' r : step s o = (s', r) -> tok_step s k o r s'.
Proof.
  intros E. pose proof (step_trans s o) as T. rewrite E in T. cbn [fst snd] in T.
  destruct T as [T| ->]; [apply trans_token, T|].
  apply tok_step_same. reflexivity.
Qed.

Lemma upd_token_views s j f t :
  alookup j (st_tokens s) = Some t -> t_objs (f t) = t_objs t -> t_login (f t) = t_login t ->
  (forall k, tok_pins (upd_token s j f) k = if j =? k then Some (t_sopin (f t), t_userpin (f t), t_key (f t)) else tok_pins s k) /\
  (forall k, tok_objs (upd_token s j f) k = tok_objs s k) /\
  (forall k, tok_login (upd_token s j f) k = tok_login s k).
Proof.
  intros H Ho Hl. unfold tok_pins, tok_objs, tok_login. rewrite upd_token_eq. simp_state.
  repeat split; intros k; rewrite alookup_lupd, H;
    (destruct (N.eqb_spec j k) as [<-|]; [rewrite ?H; cbn; congruence|reflexivity]).
Qed.

(* C04.  C_InitPIN: only in an SO session, length inside the advertised range; sets exactly the user PIN *)
Theorem initpin_spec (s : state) (h : N) (x : session) (p : bytes) (t : token) :
  st_init s = true -> get_session s h = Some x -> alookup (s_tok x) (st_tokens s) = Some t ->
  (snd (step s (OInitPin h (Some p))) = RRv CKR_OK <-> (tok_login s (s_tok x) = LSO /\ pin_len_ok (blen p) = true)) /\
  (snd (step s (OInitPin h (Some p))) = RRv CKR_OK ->
   forall k, tok_pins (fst (step s (OInitPin h (Some p)))) k =
             if s_tok x =? k then Some (t_sopin t, Some p, t_key t) else tok_pins s k) /\
  (forall k, tok_objs (fst (step s (OInitPin h (Some p)))) k = tok_objs s k) /\
  (forall k, tok_login (fst (step s (OInitPin h (Some p)))) k = tok_login s k).
Proof.
  intros Hi Hs Ht. unfold step. rewrite Hi, Hs. cbn [negb]. rewrite <- sess_state_so.
  destruct (N.eqb_spec (sess_state s x) CKS_RW_SO_FUNCTIONS) as [Eso|Eso]; cbn [negb];
    [destruct (pin_len_ok (blen p)); cbn [negb]|]; cbn [fst snd].
  - destruct (upd_token_views s (s_tok x) (fun t => set_t_userpin t (Some p)) t Ht eq_refl eq_refl) as (Hp & Ho & Hl).
    repeat split; auto.
  - split; [split; [discriminate|intros [_ H]; discriminate H]|split; [discriminate|split; reflexivity]].
  - split; [split; [discriminate|intros [H _]; contradiction]|split; [discriminate|split; reflexivity]].
Qed.

(* C_SetPIN with both PINs given and a new PIN of valid length, by the token's login state and the session's R/W
   flag in place of the five state codes *)
Lemma step_setpin s h x t po pn :
  st_init s = true -> get_session s h = Some x -> alookup (s_tok x) (st_tokens s) = Some t -> pin_len_ok (blen pn) = true ->
  step s (OSetPin h (Some po) (Some pn)) =
  if is_so (tok_login s (s_tok x)) then
    if pin_ok (t_sopin t) po then (upd_token s (s_tok x) (fun t => set_t_sopin t pn), RRv CKR_OK) else (s, RRv CKR_PIN_INCORRECT)
  else if s_rw x then
    match t_userpin t with
    | Some up => if pin_ok up po then (upd_token s (s_tok x) (fun t => set_t_userpin t (Some pn)), RRv CKR_OK)
                 else (s, RRv CKR_PIN_INCORRECT)
    | None => (s, RRv CKR_PIN_INCORRECT)
    end
  else (s, RRv CKR_SESSION_READ_ONLY).
Proof.
  intros Hi Hs Ht El. unfold step. rewrite Hi, Hs, El, Ht. cbn [negb]. unfold sess_state.
  destruct (tok_login s (s_tok x)), (s_rw x); reflexivity.
Qed.

Variant setpin_answer (s : state) (x : session) (t : token) (po pn : bytes) : state * res -> Prop :=
| SP_so_right :
    tok_login s (s_tok x) = LSO -> pin_ok (t_sopin t) po = true ->
    setpin_answer s x t po pn (upd_token s (s_tok x) (fun t => set_t_sopin t pn), RRv CKR_OK)
| SP_so_wrong :
    tok_login s (s_tok x) = LSO -> pin_ok (t_sopin t) po = false ->
    setpin_answer s x t po pn (s, RRv CKR_PIN_INCORRECT)
| SP_user_right up :
    tok_login s (s_tok x) <> LSO -> s_rw x = true -> t_userpin t = Some up -> pin_ok up po = true ->
    setpin_answer s x t po pn (upd_token s (s_tok x) (fun t => set_t_userpin t (Some pn)), RRv CKR_OK)
| SP_user_wrong up :
    tok_login s (s_tok x) <> LSO -> s_rw x = true -> t_userpin t = Some up -> pin_ok up po = false ->
    setpin_answer s x t po pn (s, RRv CKR_PIN_INCORRECT)
| SP_no_user_pin :
    tok_login s (s_tok x) <> LSO -> s_rw x = true -> t_userpin t = None ->
    setpin_answer s x t po pn (s, RRv CKR_PIN_INCORRECT)
| SP_read_only :
    tok_login s (s_tok x) <> LSO -> s_rw x = false ->
    setpin_answer s x t po pn (s, RRv CKR_SESSION_READ_ONLY).

Lemma setpin_answers s h x t po pn :
  st_init s = true -> get_session s h = Some x -> alookup (s_tok x) (st_tokens s) = Some t -> pin_len_ok (blen pn) = true ->
  setpin_answer s x t po pn (step s (OSetPin h (Some po) (Some pn))).
Proof.
  intros Hi Hs Ht El. rewrite (step_setpin s h x t po pn Hi Hs Ht El).
  destruct (is_so (tok_login s (s_tok x))) eqn:Eso.
  - apply is_so_iff in Eso. destruct (pin_ok (t_sopin t) po) eqn:Ep; [apply SP_so_right|apply SP_so_wrong]; assumption.
  - assert (Hn : tok_login s (s_tok x) <> LSO) by (intros E; rewrite E in Eso; discriminate).
    destruct (s_rw x) eqn:Erw; [|apply SP_read_only; assumption].
    destruct (t_userpin t) as [up|] eqn:Eup; [|apply SP_no_user_pin; assumption].
    destruct (pin_ok up po) eqn:Ep; [eapply SP_user_right|eapply SP_user_wrong]; eassumption.
Qed.

Theorem restart_keeps_pins (s : state) (b : bool) (k : N) :
  tok_pins (restart s b) k = tok_pins s k /\ tok_objs (restart s b) k = tok_objs s k /\ tok_login (restart s b) k = LNone.
Proof.
  unfold tok_pins, tok_objs, tok_login. rewrite restart_lookup. destruct (alookup k (st_tokens s)); auto.
Qed.

(* the calls that may change a PIN or the master key of token k (C04_pins_change_only_by, Properties_C04.v) *)
Definition pin_event (s : state) (o : op) (k : N) : Prop :=
  match o with
  | OInitPin h _ | OSetPin h _ _ => exists x, get_session s h = Some x /\ s_tok x = k /\ snd (step s o) = RRv CKR_OK
  | OInitToken _ _ lab => snd (step s o) = RRv CKR_OK /\ lab = k
  | _ => False
  end.

