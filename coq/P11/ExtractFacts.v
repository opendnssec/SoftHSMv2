(* P11/ExtractFacts.v — extractObjectInformation (SoftHSM.cpp), regenerated whole (gen/Gen_Ops.v, effect mode: the final
   values of its reference parameters are reported as effects).  It decides with which CKA_PRIVATE / CKA_TOKEN the access
   check of C_CreateObject is made.  The scan of the template is a loop and is havoc'ed: after it the five out-parameters
   and the four `bHas*` flags are arbitrary values (`hv1_*`).  (C01) *)
From Coq Require Import List NArith Bool.
From SoftHSM Require Import Gen_Const Gen_Ops.
Import ListNotations.
Local Open Scope N_scope.

(* In effect mode the translator reports the final value of the i-th reference parameter under the tag 2^64 - 16 - i
   (translator/shallow.py); here they are objClass, keyType, certType, isOnToken, isPrivate. *)
Definition OUT_CLASS : N := 18446744073709551600.
Definition OUT_KEYTYPE : N := 18446744073709551599.
Definition OUT_CERTTYPE : N := 18446744073709551598.
Definition OUT_TOKEN : N := 18446744073709551597.
Definition OUT_PRIVATE : N := 18446744073709551596.

Definition outs (e : extractObjectInformation.env) (p : N) : list (N * N) :=
  [(OUT_CLASS, extractObjectInformation.hv1_objClass e); (OUT_KEYTYPE, extractObjectInformation.hv1_keyType e);
   (OUT_CERTTYPE, extractObjectInformation.hv1_certType e); (OUT_TOKEN, extractObjectInformation.hv1_isOnToken e);
   (OUT_PRIVATE, p)].

(* at a return: the pair is read off; an error code is not CKR_OK; the two claims hold by computation *)
Ltac leaf :=
  eexists _, _; split;
  [reflexivity | intros H; first [discriminate H | split; [intros H'; first [discriminate H' | reflexivity] | reflexivity]]].

(* What the function returns, on every path: the same five out-parameters, four of them as the scan left them; the
   privacy is the scan's or 0; and what a success says about which.  The cases follow the function's own tests. *)
Lemma extract_app (e : extractObjectInformation.env) :
  exists rv p, extractObjectInformation.app e = (rv, outs e p) /\
    (rv = CKR_OK ->
     (extractObjectInformation.bImplicit e = false -> extractObjectInformation.hv1_bHasClass e = true) /\
     let cls := extractObjectInformation.hv1_objClass e in
     p = if negb (extractObjectInformation.bImplicit e) && ((cls =? CKO_CERTIFICATE) || (cls =? CKO_PUBLIC_KEY)) && negb (extractObjectInformation.hv1_bHasPrivate e)
         then 0 else extractObjectInformation.hv1_isPrivate e).
Proof.
  destruct e. cbv [outs]. extractObjectInformation.open_env. cbv [CKR_OK CKO_CERTIFICATE CKO_PUBLIC_KEY].
  destruct bImplicit; [leaf|]. destruct hv1_bHasClass; [|leaf]. destruct (_ && negb hv1_bHasKeyType); [leaf|].
  destruct (hv1_objClass =? 1); [destruct hv1_bHasCertType; [|leaf] |]; destruct (hv1_objClass =? 2), hv1_bHasPrivate; leaf.
Qed.

Lemma outs_in e p k v :
  In (k, v) (outs e p) -> (k = OUT_TOKEN -> v = extractObjectInformation.hv1_isOnToken e) /\ (k = OUT_PRIVATE -> v = p).
Proof. intros [H|[H|[H|[H|[H|[]]]]]]; injection H as <- <-; split; intros E; first [discriminate E | reflexivity]. Qed.

