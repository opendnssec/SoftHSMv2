(* P11/AssocFacts.v — lemmas about the byte strings and association lists of Defs.v, and about lists in general *)
From Coq Require Import List NArith Bool.
From SoftHSM Require Import Defs.
Import ListNotations.
Local Open Scope N_scope.

Lemma bytes_eqb_eq a : forall b, bytes_eqb a b = true <-> a = b.
Proof.
  induction a as [|x r IH]; intros [|y t]; cbn; [tauto|split; discriminate..|].
  rewrite andb_true_iff, N.eqb_eq, IH. split; [intros [-> ->]; reflexivity|intros H; inversion H; auto].
Qed.

Section A.
  Context {A : Type}.
  Implicit Types (l : list (N * A)) (k : N) (v : A).

  Lemma alookup_aset l k k' v : alookup k' (aset k v l) = if k =? k' then Some v else alookup k' l.
  Proof.
    induction l as [|[k0 v0] r IH]; cbn; [reflexivity|]. destruct (N.eqb_spec k0 k) as [->|Hne]; cbn; [destruct (k =? k'); reflexivity|].
    rewrite IH. destruct (N.eqb_spec k0 k'), (N.eqb_spec k k'); congruence.
  Qed.

  Lemma alookup_aset_eq l k v : alookup k (aset k v l) = Some v.
  Proof. rewrite alookup_aset, N.eqb_refl. reflexivity. Qed.

  Lemma alookup_aset_neq l k k' v : k' <> k -> alookup k' (aset k v l) = alookup k' l.
  Proof. intros Hne. rewrite alookup_aset. destruct (N.eqb_spec k k'); congruence. Qed.

  Lemma alookup_In l k v : alookup k l = Some v -> In (k, v) l.
  Proof.
    induction l as [|[k' v'] r IH]; cbn; [discriminate|].
    destruct (k' =? k) eqn:E.
    - intros H. inversion H. subst. apply N.eqb_eq in E. subst. left. reflexivity.
    - intros H. right. apply IH. exact H.
  Qed.

  Lemma alookup_app l1 l2 k :
    alookup k (l1 ++ l2) = match alookup k l1 with Some v => Some v | None => alookup k l2 end.
  Proof.
    induction l1 as [|[k' v'] r IH]; cbn; [reflexivity|].
    destruct (k' =? k); [reflexivity|exact IH].
  Qed.

  Lemma alookup_filter_Some l k v (f : N * A -> bool) :
    alookup k (filter f l) = Some v -> exists v', alookup k l = Some v'.
  Proof.
    induction l as [|[k' v'] r IH]; cbn; [discriminate|].
    destruct (f (k', v')); cbn; destruct (k' =? k); eauto.
  Qed.

  Lemma alookup_none_filter l k (f : N * A -> bool) :
    alookup k l = None -> alookup k (filter f l) = None.
  Proof.
    induction l as [|[k' v'] r IH]; cbn; [reflexivity|].
    destruct (k' =? k) eqn:E; [discriminate|].
    intros H. destruct (f (k', v')); cbn; [rewrite E|]; apply IH; exact H.
  Qed.

  Lemma In_aset l k v p : In p (aset k v l) -> p = (k, v) \/ In p l.
  Proof.
    induction l as [|[k' v'] r IH]; cbn.
    - intros [H|[]]; left; congruence.
    - destruct (k' =? k) eqn:E; cbn.
      + intros [H|H]; [left; congruence|right; right; exact H].
      + intros [H|H]; [right; left; exact H|]. destruct (IH H) as [H1|H1]; [left; exact H1|right; right; exact H1].
  Qed.

  Lemma In_akeys l k v : In (k, v) l -> In k (akeys l).
  Proof. exact (in_map fst l (k, v)). Qed.

  Lemma akeys_In l k : In k (akeys l) -> exists v, In (k, v) l.
  Proof. intros H. apply in_map_iff in H. destruct H as [[a b] [H1 H2]]. cbn in H1. subst. eauto. Qed.

  Lemma aset_keys_incl l k v k' : In k' (akeys (aset k v l)) -> k' = k \/ In k' (akeys l).
  Proof.
    intros H. apply akeys_In in H. destruct H as [b H]. apply In_aset in H.
    destruct H as [[= -> _]|H]; [left; reflexivity|right; eapply In_akeys, H].
  Qed.

  Lemma alookup_keys l k v : alookup k l = Some v -> In k (akeys l).
  Proof. intros H. eapply In_akeys, alookup_In, H. Qed.

  Lemma alookup_not_key l k : ~ In k (akeys l) -> alookup k l = None.
  Proof.
    intros H. destruct (alookup k l) eqn:E; [|reflexivity]. exfalso. apply H. eapply alookup_keys. exact E.
  Qed.

  Definition lupd k (f : A -> A) l : list (N * A) :=
    match alookup k l with Some v => aset k (f v) l | None => l end.

  Lemma lupd_found l k v f : alookup k l = Some v -> lupd k f l = aset k (f v) l.
  Proof. unfold lupd. intros ->. reflexivity. Qed.

  Lemma alookup_lupd l k k' f : alookup k' (lupd k f l) = if k =? k' then option_map f (alookup k l) else alookup k' l.
  Proof.
    unfold lupd. destruct (alookup k l) eqn:E; [rewrite alookup_aset; destruct (k =? k'); reflexivity|].
    destruct (k =? k') eqn:E2; [apply N.eqb_eq in E2; subst; exact E|reflexivity].
  Qed.

  Lemma In_lupd l k f p : In p (lupd k f l) -> In p l \/ exists v, alookup k l = Some v /\ p = (k, f v).
  Proof.
    unfold lupd. destruct (alookup k l) eqn:E; [|auto]. intros H. apply In_aset in H. destruct H; eauto.
  Qed.
End A.

Lemma NoDup_app {A} (l m : list A) : NoDup l -> NoDup m -> (forall x, In x l -> In x m -> False) -> NoDup (l ++ m).
Proof.
  induction l as [|a r IH]; cbn; intros Hl Hm Hd; [exact Hm|]. inversion Hl; subst. constructor.
  - intro H. apply in_app_or in H. destruct H; [auto|]. eapply Hd; eauto.
  - apply IH; eauto.
Qed.

Lemma in_map_filter {A B} (f : A -> B) p l : incl (map f (filter p l)) (map f l).
Proof. apply incl_map, incl_filter. Qed.

Lemma NoDup_map_filter {A B} (f : A -> B) p l : NoDup (map f l) -> NoDup (map f (filter p l)).
Proof.
  induction l as [|a r IH]; cbn; [auto|]. intros H. inversion H as [|? ? Hn Hr]; subst.
  destruct (p a); cbn; [constructor|]; auto. intros Hin. exact (Hn (in_map_filter f p r _ Hin)).
Qed.

Lemma NoDup_snoc {A} (l : list A) x : NoDup l -> ~ In x l -> NoDup (l ++ [x]).
Proof.
  intros Hl Hx. apply NoDup_app; [exact Hl|constructor; [intros []|constructor]|intros y Hy [<-|[]]; exact (Hx Hy)].
Qed.

Lemma existsb_false_In {A} (f : A -> bool) l x : existsb f l = false -> In x l -> f x = false.
Proof.
  intros H Hin. destruct (f x) eqn:E; [|reflexivity].
  assert (existsb f l = true) by (apply existsb_exists; eauto). congruence.
Qed.

Lemma filter_true {A} (l : list A) : filter (fun _ => true) l = l.
Proof. induction l as [|a r IH]; cbn; [reflexivity|rewrite IH; reflexivity]. Qed.

Lemma filter_filter_In {A} (f g : A -> bool) l :
  (forall x, In x l -> f x = true -> g x = true) -> filter f (filter g l) = filter f l.
Proof.
  induction l as [|a r IH]; cbn; intros H; [reflexivity|].
  destruct (g a) eqn:Eg; cbn.
  - rewrite IH by (intros; apply H; auto). reflexivity.
  - destruct (f a) eqn:Ef.
    + rewrite H in Eg; auto. discriminate.
    + apply IH. intros; apply H; auto.
Qed.

Lemma filter_negb_In {A} (g : A -> bool) l p : In p (filter (fun p => negb (g p)) l) -> In p l /\ g p = false.
Proof. intros H. apply filter_In in H. destruct H as [H1 H2]. apply negb_true_iff in H2. auto. Qed.

Lemma fold_left_filter {A B} (g : A -> B -> A) (f : B -> bool) l :
  (forall e d, f e = false -> g d e = d) -> forall d, fold_left g (filter f l) d = fold_left g l d.
Proof.
  intros Hf. induction l as [|e r IH]; intros d; cbn [filter fold_left]; [reflexivity|].
  destruct (f e) eqn:E; cbn [fold_left]; [|rewrite (Hf e d E)]; apply IH.
Qed.

Lemma fold_left_fixed {A B} (g : A -> B -> A) l d : (forall e, In e l -> g d e = d) -> fold_left g l d = d.
Proof. induction l as [|e r IH]; intros H; cbn [fold_left]; [reflexivity|]. rewrite H by (left; reflexivity). apply IH. intros; apply H; right; assumption. Qed.

Lemma akeys_app {A} (l1 l2 : list (N * A)) : akeys (l1 ++ l2) = akeys l1 ++ akeys l2.
Proof. unfold akeys. apply map_app. Qed.

Lemma akeys_filter {A} (f : N * A -> bool) l h : In h (akeys (filter f l)) -> In h (akeys l).
Proof. apply in_map_filter. Qed.

Lemma NoDup_akeys_filter {A} (f : N * A -> bool) l : NoDup (akeys l) -> NoDup (akeys (filter f l)).
Proof. apply NoDup_map_filter. Qed.

Lemma akeys_aset_same {A} (l : list (N * A)) k v v0 : alookup k l = Some v0 -> akeys (aset k v l) = akeys l.
Proof.
  induction l as [|[k' v'] r IH]; cbn; [discriminate|].
  destruct (k' =? k) eqn:E; cbn.
  - intros _. apply N.eqb_eq in E. subst. reflexivity.
  - intros H. f_equal. apply IH. exact H.
Qed.

Lemma akeys_lupd {A} k (f : A -> A) l : akeys (lupd k f l) = akeys l.
Proof. unfold lupd. destruct (alookup k l) eqn:E; [eapply akeys_aset_same, E|reflexivity]. Qed.

Lemma alookup_filter_sub {A} (f : N * A -> bool) l k v : NoDup (akeys l) -> alookup k (filter f l) = Some v -> alookup k l = Some v.
Proof.
  induction l as [|[k' v'] r IH]; cbn; [discriminate|]. intros Hnd. inversion Hnd; subst.
  destruct (f (k', v')) eqn:Ef; cbn.
  - destruct (k' =? k) eqn:E; [auto|apply IH; assumption].
  - intros H. destruct (k' =? k) eqn:E.
    + apply N.eqb_eq in E. subst k'. exfalso. apply H1.
      apply alookup_keys in H. eapply akeys_filter. exact H.
    + apply IH; assumption.
Qed.

Lemma nodup_lookup_In {A} (l : list (N * A)) k v v' :
  NoDup (akeys l) -> alookup k l = Some v -> In (k, v') l -> v' = v.
Proof.
  induction l as [|[k0 v0] r IH]; cbn; [intros _ H; discriminate|].
  intros Hnd. inversion Hnd; subst. destruct (k0 =? k) eqn:E.
  - apply N.eqb_eq in E. subst. intros H [Hin|Hin]; [congruence|]. exfalso. apply H1. eapply In_akeys. exact Hin.
  - intros H [Hin|Hin]; [inversion Hin; subst; rewrite N.eqb_refl in E; discriminate|]. eapply IH; eauto.
Qed.

Lemma filter_aset_off {A} (f : N * A -> bool) l k v v0 :
  alookup k l = Some v0 -> f (k, v0) = false -> f (k, v) = false -> filter f (aset k v l) = filter f l.
Proof.
  induction l as [|[k' v'] r IH]; cbn; [discriminate|].
  destruct (k' =? k) eqn:E.
  - intros H. inversion H; subst. apply N.eqb_eq in E. subst. intros H1 H2. cbn. rewrite H1, H2. reflexivity.
  - intros H H1 H2. cbn. rewrite IH by assumption. reflexivity.
Qed.

Lemma neq_eqb_false j k : j <> k -> (j =? k) = false.
Proof. intros H. apply N.eqb_neq. exact H. Qed.

Lemma alookup_lupd_neq {A} j k (f : A -> A) l : j <> k -> alookup k (lupd j f l) = alookup k l.
Proof. intros H. rewrite alookup_lupd, (neq_eqb_false j k H). reflexivity. Qed.

Lemma alookup_map {A} (g : A -> A) (l : list (N * A)) k :
  alookup k (map (fun p => (fst p, g (snd p))) l) = option_map g (alookup k l).
Proof. induction l as [|[a v] r IH]; cbn; [reflexivity|]. destruct (a =? k); [reflexivity|exact IH]. Qed.

Section Keeps.
  Context {A B : Type} (p : A -> B).
  Definition keeps (l l' : list (N * A)) : Prop := forall k v', In (k, v') l' -> exists v, In (k, v) l /\ p v' = p v.

  Lemma keeps_refl l : keeps l l.
  Proof. intros k v H. eauto. Qed.
  Lemma keeps_nil l : keeps l [].
  Proof. intros k v []. Qed.
  Lemma keeps_filter f l : keeps l (filter f l).
  Proof. intros k v H. apply filter_In in H. exists v. tauto. Qed.
  Lemma keeps_lupd k f l : (forall v, p (f v) = p v) -> keeps l (lupd k f l).
  Proof.
    intros Hf k' v' H. apply In_lupd in H. destruct H as [H|(v & Hv & [= -> ->])]; [eauto|].
    exists v. split; [apply alookup_In, Hv|apply Hf].
  Qed.
  Lemma keeps_akeys l l' : keeps l l' -> incl (akeys l') (akeys l).
  Proof. intros H k Hk. apply akeys_In in Hk. destruct Hk as [v' Hv]. destruct (H k v' Hv) as (v & Hin & _). eapply In_akeys, Hin. Qed.
End Keeps.

Definition incl_or {A} (P : A -> Prop) (l l' : list A) : Prop := forall x, In x l' -> In x l \/ P x.

Lemma incl_or_refl {A} (P : A -> Prop) l : incl_or P l l.
Proof. intros x Hin. auto. Qed.

Lemma incl_or_nil {A} (P : A -> Prop) l : incl_or P l [].
Proof. intros x []. Qed.

Lemma incl_or_filter {A} (P : A -> Prop) l f : incl_or P l (filter f l).
Proof. intros x Hin. apply filter_In in Hin. tauto. Qed.

Lemma incl_or_snoc {A} (P : A -> Prop) l x : P x -> incl_or P l (l ++ [x]).
Proof. intros HP y Hin. apply in_app_or in Hin. destruct Hin as [Hin|[<-|[]]]; auto. Qed.

Lemma incl_or_aset {A} (P : N * A -> Prop) l k v : P (k, v) -> incl_or P l (aset k v l).
Proof. intros HP y Hin. apply In_aset in Hin. destruct Hin as [->|Hin]; auto. Qed.

Lemma incl_or_lupd {A} (P : N * A -> Prop) l k f : (forall v, alookup k l = Some v -> P (k, f v)) -> incl_or P l (lupd k f l).
Proof. intros HP y Hin. apply In_lupd in Hin. destruct Hin as [Hin|(v & Hv & ->)]; auto. Qed.

(* the entries with [tk] = k are not affected by changes to entries with [tk] = j *)
Section Off.
  Context {A : Type} (tk : A -> N) (j k : N) (Hne : j <> k).
  Notation on := (fun p : N * A => tk (snd p) =? k).

  Lemma off_filter f l : (forall p, In p l -> f p = false -> tk (snd p) = j) -> filter on (filter f l) = filter on l.
  Proof.
    intros H. apply filter_filter_In. intros p Hin Hk. destruct (f p) eqn:E; [reflexivity|].
    apply (H p Hin) in E. apply N.eqb_eq in Hk. congruence.
  Qed.

  Lemma off_filter_tok l : filter on (filter (fun p => negb (tk (snd p) =? j)) l) = filter on l.
  Proof. apply off_filter. intros p _ H. apply negb_false_iff, N.eqb_eq in H. exact H. Qed.

  Lemma off_app l m : Forall (fun p => tk (snd p) = j) m -> filter on (l ++ m) = filter on l.
  Proof.
    intros H. rewrite filter_app. induction H as [|p m Hp _ IH]; cbn; [apply app_nil_r|].
    rewrite Hp, (neq_eqb_false j k Hne). exact IH.
  Qed.

  Lemma off_lupd i f l : (forall v, alookup i l = Some v -> tk v = j /\ tk (f v) = j) -> filter on (lupd i f l) = filter on l.
  Proof.
    unfold lupd. destruct (alookup i l) as [v|] eqn:E; [|reflexivity]. intros H. destruct (H v eq_refl) as [H1 H2].
    eapply filter_aset_off; [exact E|..]; cbn; apply N.eqb_neq; congruence.
  Qed.

  Lemma off_aremove i v l : NoDup (akeys l) -> alookup i l = Some v -> tk v = j -> filter on (aremove i l) = filter on l.
  Proof.
    intros Hnd Hv Hj. apply off_filter. intros [i' v'] Hin E. apply negb_false_iff, N.eqb_eq in E. cbn in *. subst i'.
    rewrite (nodup_lookup_In _ _ _ _ Hnd Hv Hin). exact Hj.
  Qed.
End Off.
