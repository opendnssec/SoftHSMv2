(* P11/EncFacts.v — private objects are encrypted at rest (C06, model level).

   Every NON-EMPTY byte-string attribute of an object whose CKA_PRIVATE is true is stored as a
   ciphertext [ABytes (Some key) _]; public objects hold clear byte strings [ABytes None _].

   UNDER WHICH KEY.  The wanted statement [inv_enc] says "under the master key of the token the object
   belongs to".  It is FALSE for the model (and the model mirrors the C++ here): C_SetAttributeValue
   and C_CopyObject take the Token of the SESSION for Token::encrypt and never compare it with the
   token that owns the object behind the handle, so a logged-in session of token A presenting a handle
   of a private object of token B stores a value encrypted under A's key inside B's object, or creates
   on A a copy whose values are still under B's key.  What holds instead: in every reachable state the
   non-empty byte strings of a private object are ciphertexts under the master key of SOME existing
   token and public objects are entirely clear; [inv_enc] itself is kept by every call whose session and
   object handle denote the same token; the master key identity of an existing token never changes. *)
From Coq Require Import List NArith Bool.
From SoftHSM Require Import Gen_Const Gen_Pure Defs Core AssocFacts AttrFacts StepFacts PinFacts TokenFacts.
Import ListNotations.
Local Open Scope N_scope.

Definition attr_enc_ok (key : N) (a : osattr) : Prop :=
  match a with ABytes enc b => b = [] \/ enc = Some key | _ => True end.
Definition obj_enc_ok (key : N) (o : obj) : Prop :=
  o_private o = true -> forall t a, In (t, a) o -> attr_enc_ok key a.
Definition inv_enc (s : state) : Prop :=
  (forall k t oid o, alookup k (st_tokens s) = Some t -> In (oid, o) (t_objs t) -> obj_enc_ok (t_key t) o) /\
  (forall oid so t, In (oid, so) (st_sobjs s) -> alookup (so_tok so) (st_tokens s) = Some t -> obj_enc_ok (t_key t) (so_obj so)).

(* the inductive form needs a predicate on key identities, and clear storage of public objects
   ([inv_enc_alone_not_inductive]) *)
Definition attr_enc (P : N -> Prop) (a : osattr) : Prop :=
  match a with ABytes enc b => b = [] \/ exists key, enc = Some key /\ P key | _ => True end.
Definition attr_plain (a : osattr) : Prop :=
  match a with ABytes enc _ => enc = None | _ => True end.
Definition all_enc (P : N -> Prop) (o : obj) : Prop := forall t a, In (t, a) o -> attr_enc P a.
Definition all_plain (o : obj) : Prop := forall t a, In (t, a) o -> attr_plain a.
Definition obj_ok (P : N -> Prop) (o : obj) : Prop := if o_private o then all_enc P o else all_plain o.

(* what saveTemplate stores while its isPrivate flag is [ip] *)
Definition attr_ok (P : N -> Prop) (ip : bool) (a : osattr) : Prop := if ip then attr_enc P a else attr_plain a.
Definition attrs_ok (P : N -> Prop) (ip : bool) (o : obj) : Prop := forall t a, In (t, a) o -> attr_ok P ip a.

Lemma obj_ok_attrs (P : N -> Prop) o : obj_ok P o <-> attrs_ok P (o_private o) o.
Proof. unfold obj_ok, attrs_ok, attr_ok. destruct (o_private o); reflexivity. Qed.

Lemma obj_ok_mono (P Q : N -> Prop) o : (forall k, P k -> Q k) -> obj_ok P o -> obj_ok Q o.
Proof.
  unfold obj_ok. intros H. destruct (o_private o); [|auto]. intros Ho t a Hin. specialize (Ho t a Hin).
  destruct a; cbn in *; auto. destruct Ho as [E|(key & E & HP)]; eauto.
Qed.

Lemma attrs_ok_aset (P : N -> Prop) ip o a v : attrs_ok P ip o -> attr_ok P ip v -> attrs_ok P ip (aset a v o).
Proof. intros Ho Hv t x Hin. apply In_aset in Hin. destruct Hin as [[= _ <-]|Hin]; [exact Hv|eapply Ho; exact Hin]. Qed.

Lemma defaults_ok (P : N -> Prop) ip : attrs_ok P ip data_defaults.
Proof. intros t a Hin. cbn in Hin. destruct ip; repeat (destruct Hin as [[= _ <-]|Hin]; [cbn; auto|]); destruct Hin. Qed.
Lemma defaults_private : o_private data_defaults = true.
Proof. reflexivity. Qed.

Lemma update_attr_cases tc a o ip e :
  snd (update_attr tc a o ip e) = o \/
  (exists b, snd (update_attr tc a o ip e) = aset a (ABool b) o) \/
  (a <> CKA_PRIVATE /\ (ip = true -> tc_logged tc = true) /\
   exists b, snd (update_attr tc a o ip e) = aset a (ABytes (if ip then Some (tc_key tc) else None) b) o).
Proof.
  assert (Hne : is_bool_attr a = false -> a <> CKA_PRIVATE) by (intros H ->; discriminate H).
  unfold update_attr. repeat break_match; cbn [snd]; eauto.
  1,2: (* a private byte string, somebody logged in *) right; right; eauto 6.
  all: (* a public byte string *) right; right; split; [auto|split; [discriminate|eauto]].
Qed.

Lemma update_attr_ok (P : N -> Prop) tc a o ip e :
  (tc_logged tc = true -> P (tc_key tc)) -> attrs_ok P ip o -> attrs_ok P ip (snd (update_attr tc a o ip e)).
Proof.
  intros HP Ho. destruct (update_attr_cases tc a o ip e) as [E|[[b E]|(_ & Hl & b & E)]]; rewrite E;
    [exact Ho|apply attrs_ok_aset; [exact Ho|]..].
  - destruct ip; exact I.
  - destruct ip; [right; eauto|reflexivity].
Qed.

Lemma update_attr_other tc a o ip e :
  a <> CKA_PRIVATE -> alookup CKA_PRIVATE (snd (update_attr tc a o ip e)) = alookup CKA_PRIVATE o.
Proof.
  intros Hne. destruct (update_attr_cases tc a o ip e) as [E|[[b E]|(_ & _ & b & E)]]; rewrite E;
    [reflexivity|apply alookup_aset_neq|apply alookup_aset_neq]; congruence.
Qed.

Lemma update_attr_private tc o ip e :
  fst (update_attr tc CKA_PRIVATE o ip e) = CKR_OK ->
  te_len e = 1 /\ snd (update_attr tc CKA_PRIVATE o ip e) = aset CKA_PRIVATE (ABool (negb (first_byte (te_val e) =? 0))) o.
Proof.
  unfold update_attr. change (CKA_PRIVATE =? CKA_CLASS) with false. change (CKA_PRIVATE =? CKA_COPYABLE) with false.
  change (is_bool_attr CKA_PRIVATE) with true. cbv iota.
  destruct (N.eqb_spec (te_len e) 1); cbn [negb fst snd]; [auto|discriminate].
Qed.

(* C_SetAttributeValue never reaches the updater of CKA_PRIVATE: the checks of that attribute are ck17 only *)
Lemma attr_update_ok tc o ip e op o1 :
  attr_update tc o ip e op = (CKR_OK, o1) ->
  fst (update_attr tc (te_type e) o ip e) = CKR_OK /\ o1 = snd (update_attr tc (te_type e) o ip e) /\
  (op = OBJECT_OP_SET -> te_type e <> CKA_PRIVATE).
Proof.
  unfold attr_update. destruct (alookup (te_type e) data_table) as [[size checks]|] eqn:Et; [|intros [= H _]; discriminate H].
  cbv zeta. set (rv := gen_P11Attribute__update _ _ _ _ _ _ _ _ _ _ _ _).
  assert (Hu : is_error rv \/ rv = fst (update_attr tc (te_type e) o ip e)) by apply update_error_or_updater.
  assert (Hs : op = OBJECT_OP_SET -> has checks ck8 = false -> has checks ck11 = false -> is_error rv)
    by apply update_set_needs_ck8_or_ck11.
  destruct (rv =? CKR_OK) eqn:E; intros [= H1 <-]; [|rewrite H1 in E; discriminate E].
  assert (Hne : ~ is_error rv) by (rewrite H1; intros [H|[H|H]]; discriminate H).
  split; [|split; [reflexivity|]].
  - destruct Hu as [Hu|Hu]; [contradiction|congruence].
  - intros -> Ep. rewrite Ep in Et. injection Et as <- <-. apply Hne, Hs; reflexivity.
Qed.

Lemma save_template_ok tc rb ip tm op o o1 :
  save_template tc rb ip tm op o = (CKR_OK, o1) -> save_entries tc ip op tm o = (CKR_OK, o1).
Proof.
  unfold save_template. cbv beta zeta.
  destruct ((op =? OBJECT_OP_SET) && _); [intros [= H _]; discriminate H|].
  destruct ((op =? OBJECT_OP_COPY) && _); [intros [= H _]; discriminate H|].
  destruct (save_entries tc ip op tm o) as [rv o2].
  destruct (N.eqb_spec rv CKR_OK) as [->|]; cbn [negb]; [|intros [= H _]; congruence].
  destruct (mandatory_missing op tm); [intros [= H _]; discriminate H|auto].
Qed.

(* the entries are stored one by one: an invariant between the object and a fold over the template
   that every successful P11Attribute::update keeps holds at the end *)
Lemma save_entries_fold {A} (R : A -> obj -> Prop) (g : A -> tentry -> A) tc ip op tm :
  (forall d e o o', In e tm -> R d o -> attr_update tc o ip e op = (CKR_OK, o') -> R (g d e) o') ->
  forall d o o1, save_entries tc ip op tm o = (CKR_OK, o1) -> R d o -> R (fold_left g tm d) o1.
Proof.
  induction tm as [|e r IH]; intros Hstep d o o1; cbn [save_entries fold_left].
  - intros [= <-]. auto.
  - destruct (attr_update tc o ip e op) as [rv o'] eqn:E. destruct (N.eqb_spec rv CKR_OK) as [->|]; [|intros [= H _]; congruence].
    intros H Hd. apply (IH (fun d e o o' Hin => Hstep d e o o' (or_intror Hin)) _ _ _ H).
    apply (Hstep d e o o'); auto. left. reflexivity.
Qed.

Lemma save_entries_keeps (R : obj -> Prop) tc ip op tm :
  (forall e o o', R o -> attr_update tc o ip e op = (CKR_OK, o') -> R o') ->
  forall o o1, save_entries tc ip op tm o = (CKR_OK, o1) -> R o -> R o1.
Proof.
  intros Hstep o o1. exact (save_entries_fold (fun _ : unit => R) (fun d _ => d) tc ip op tm (fun _ e o o' _ => Hstep e o o') tt o o1).
Qed.

Lemma save_entries_ok (P : N -> Prop) tc ip op tm o o1 :
  (tc_logged tc = true -> P (tc_key tc)) ->
  save_entries tc ip op tm o = (CKR_OK, o1) -> attrs_ok P ip o -> attrs_ok P ip o1.
Proof.
  intros HP. apply save_entries_keeps. intros e o2 o3 Ho H. apply attr_update_ok in H. destruct H as (_ & -> & _).
  apply update_attr_ok; assumption.
Qed.

Lemma save_entries_set_private tc ip tm o o1 :
  save_entries tc ip OBJECT_OP_SET tm o = (CKR_OK, o1) -> alookup CKA_PRIVATE o1 = alookup CKA_PRIVATE o.
Proof.
  intros H. apply (save_entries_keeps (fun o' => alookup CKA_PRIVATE o' = alookup CKA_PRIVATE o)) with (2 := H); [|reflexivity].
  intros e o2 o3 Ho Hu. apply attr_update_ok in Hu. destruct Hu as (_ & -> & Hne). rewrite <- Ho. apply update_attr_other. auto.
Qed.

Lemma wellformed_private tm e :
  tmpl_wellformed tm = true -> In e tm -> te_type e = CKA_PRIVATE -> te_len e = 1 -> exists x br, te_val e = Some (x :: br).
Proof.
  unfold tmpl_wellformed. rewrite forallb_forall. intros Hw Hin Et El. specialize (Hw e Hin). rewrite Et, El in Hw.
  destruct (te_val e) as [[|x br]|]; [discriminate Hw|eauto|discriminate Hw].
Qed.

Lemma o_private_lookup o o' : alookup CKA_PRIVATE o' = alookup CKA_PRIVATE o -> o_private o' = o_private o.
Proof. unfold o_private, obj_bool. intros ->. reflexivity. Qed.

(* the CKA_PRIVATE the template announces (extractObjectInformation) is the one that gets stored *)
Lemma save_entries_private tc ip op tm o o1 d :
  tmpl_wellformed tm = true -> save_entries tc ip op tm o = (CKR_OK, o1) ->
  negb (d =? 0) = o_private o -> negb (tmpl_bool CKA_PRIVATE tm d =? 0) = o_private o1.
Proof.
  intros Hw. apply (save_entries_fold (fun d o => negb (d =? 0) = o_private o)). clear d o o1.
  intros d e o o' Hin Hd Hu. apply attr_update_ok in Hu. destruct Hu as (Hf & -> & _).
  destruct (N.eqb_spec (te_type e) CKA_PRIVATE) as [Et|Et]; cbn [andb].
  - rewrite Et in Hf |- *. destruct (update_attr_private _ _ _ _ Hf) as [El ->].
    destruct (wellformed_private tm e Hw Hin Et El) as (x & br & Ev). rewrite El, Ev. cbn [N.eqb Pos.eqb first_byte].
    unfold o_private at 1, obj_bool. rewrite alookup_aset_eq. reflexivity.
  - rewrite Hd. symmetry. apply o_private_lookup, update_attr_other, Et.
Qed.

(* CreateObject moves CKA_CHECK_VALUE entries to the end; that does not touch entries of other types *)
Lemma tmpl_bool_reorder a tm d : a <> CKA_CHECK_VALUE -> tmpl_bool a (reorder tm) d = tmpl_bool a tm d.
Proof.
  intros Ha. assert (Hcv : forall e, te_type e = CKA_CHECK_VALUE -> (te_type e =? a) = false) by (intros e ->; apply N.eqb_neq; congruence).
  unfold reorder, tmpl_bool. rewrite fold_left_app, (fold_left_filter _ (fun e => negb (te_type e =? CKA_CHECK_VALUE))).
  - apply fold_left_fixed. intros e He. apply filter_In in He. destruct He as [_ He]. apply N.eqb_eq in He. rewrite (Hcv e He). reflexivity.
  - intros e d' He. apply negb_false_iff, N.eqb_eq in He. rewrite (Hcv e He). reflexivity.
Qed.

Lemma reorder_wellformed tm : tmpl_wellformed tm = true -> tmpl_wellformed (reorder tm) = true.
Proof.
  unfold tmpl_wellformed, reorder. rewrite !forallb_forall. intros H e He. apply H.
  apply in_app_or in He. destruct He as [He|He]; apply filter_In in He; tauto.
Qed.

(* C_CreateObject: the object starts from the (empty) defaults *)
Lemma create_obj_ok (P : N -> Prop) tc rb tm o1 :
  tmpl_wellformed tm = true -> (tc_logged tc = true -> P (tc_key tc)) ->
  save_template tc rb (negb (tmpl_bool CKA_PRIVATE tm 1 =? 0)) (reorder tm) OBJECT_OP_CREATE data_defaults = (CKR_OK, o1) ->
  obj_ok P o1.
Proof.
  intros Hw HP H. apply save_template_ok in H. apply obj_ok_attrs.
  rewrite <- (save_entries_private _ _ _ _ _ _ 1 (reorder_wellformed _ Hw) H eq_refl), tmpl_bool_reorder by discriminate.
  eapply save_entries_ok; [exact HP|exact H|apply defaults_ok].
Qed.

(* C_SetAttributeValue: isPrivate is the object's own flag, which the call cannot change *)
Lemma set_obj_ok (P : N -> Prop) tc rb tm ob o1 :
  (tc_logged tc = true -> P (tc_key tc)) -> obj_ok P ob ->
  save_template tc rb (o_private ob) tm OBJECT_OP_SET ob = (CKR_OK, o1) -> obj_ok P o1.
Proof.
  intros HP Hob H. apply save_template_ok in H. apply obj_ok_attrs.
  rewrite (o_private_lookup _ _ (save_entries_set_private _ _ _ _ _ H)).
  eapply save_entries_ok; [exact HP|exact H|apply obj_ok_attrs, Hob].
Qed.

(* C_CopyObject: the attribute copy loop ([copied]) with the public -> private upgrade *)
Lemma copied_bool up key a d : forall ob, obj_bool (copied up key ob) a d = obj_bool ob a d.
Proof.
  unfold obj_bool, copied. induction ob as [|[t v] r IH]; [reflexivity|]. cbn [map snd fst].
  destruct v as [b|n|[k|] [|b0 br]|l|l]; destruct up; cbn [alookup]; destruct (t =? a); auto.
Qed.

Lemma copied_ok (P : N -> Prop) key ob ip :
  obj_ok P ob -> o_private ob && negb ip = false -> (negb (o_private ob) && ip = true -> P key) ->
  attrs_ok P ip (copied (negb (o_private ob) && ip) key ob).
Proof.
  intros Hob Hdown HP t a Hin. apply in_map_iff in Hin. destruct Hin as ([t0 v] & E & Hin).
  apply obj_ok_attrs in Hob. specialize (Hob t0 v Hin).
  destruct (o_private ob), ip; cbn [negb andb] in *; [|discriminate Hdown| |].
  1,3: (* no upgrade: the entry is copied as it is *)
    destruct v as [b|n|[k|] [|b0 br]|l|l]; injection E as <- <-; exact Hob.
  (* upgrade: the object was public, so there are clear strings only, and the non-empty ones are encrypted *)
  destruct v as [b|n|[k|] [|b0 br]|l|l]; cbn in Hob; [| |discriminate Hob|discriminate Hob|..]; injection E as <- <-; cbn; eauto.
Qed.

Lemma copy_obj_ok (P : N -> Prop) tc rb tm ob ip o1 :
  ip = negb (tmpl_bool CKA_PRIVATE tm (b2n (o_private ob)) =? 0) ->
  tmpl_wellformed tm = true -> (tc_logged tc = true -> P (tc_key tc)) -> obj_ok P ob ->
  o_private ob && negb ip = false -> negb (o_private ob) && ip && negb (tc_logged tc) = false ->
  save_template tc rb ip tm OBJECT_OP_COPY (copied (negb (o_private ob) && ip) (tc_key tc) ob) = (CKR_OK, o1) ->
  obj_ok P o1.
Proof.
  intros Eip Hw HP Hob Hdown Hlog H. apply save_template_ok in H. apply obj_ok_attrs.
  replace (o_private o1) with ip.
  - eapply save_entries_ok; [exact HP|exact H|]. apply copied_ok; [exact Hob|exact Hdown|].
    intros Hup. rewrite Hup in Hlog. apply HP, negb_false_iff, Hlog.
  - rewrite Eip. eapply save_entries_private; [exact Hw|exact H|]. unfold o_private. rewrite copied_bool.
    destruct (obj_bool ob CKA_PRIVATE true); reflexivity.
Qed.

Definition tok_key (s : state) (k : N) : option N := option_map t_key (alookup k (st_tokens s)).

(* C06: no call changes the master key identity of an existing token, whether it changes a PIN, re-initialises
   the token or restarts the library; so values encrypted under it stay decryptable *)
Theorem key_changes_never (s : state) (o : op) (k : N) :
  tok_key (fst (step s o)) k = tok_key s k \/ tok_key s k = None.
Proof.
  destruct (step s o) as [s' r] eqn:Es. cbn [fst]. unfold tok_key.
  destruct (step_token s o k s' r Es) as [(f & Ef & ->)|(p & _ & _ & -> & _)]; [left|right; reflexivity].
  destruct (alookup k (st_tokens s)) as [t|]; [cbn; f_equal|reflexivity].
  (* none of the effects a call has on the entry of a token touches [t_key] *)
  destruct Ef as [| | |? ? ? ? _ _ U| | |]; [| | |destruct U|..]; reflexivity.
Qed.

Theorem step_keeps_key (s : state) (o : op) (k key : N) :
  tok_key s k = Some key -> tok_key (fst (step s o)) k = Some key.
Proof. intros H. destruct (key_changes_never s o k) as [E|E]; [rewrite E; exact H|rewrite E in H; discriminate H]. Qed.

Theorem exec_keeps_key (ops : list op) : forall (s : state) (k key : N),
  tok_key s k = Some key -> tok_key (exec s ops) k = Some key.
Proof. intros s k key. apply (exec_invariant (fun s => tok_key s k = Some key)). intros s0 o. apply step_keeps_key. Qed.

Corollary exec_keeps_t_key (ops : list op) (s : state) (k : N) (t : token) :
  alookup k (st_tokens s) = Some t ->
  option_map t_key (alookup k (st_tokens (exec s ops))) = option_map t_key (alookup k (st_tokens s)).
Proof.
  intros H. change (tok_key (exec s ops) k = tok_key s k). unfold tok_key at 2. rewrite H.
  apply exec_keeps_key. unfold tok_key. rewrite H. reflexivity.
Qed.

Corollary key_stable_reachable (ops1 ops2 : list op) (k key : N) :
  tok_key (exec init_state ops1) k = Some key -> tok_key (exec init_state (ops1 ++ ops2)) k = Some key.
Proof. intros H. rewrite exec_app. apply exec_keeps_key. exact H. Qed.

(* [incl_or] for the objects inside a token table, token by token *)
Definition tobjs_sub (Q : N -> obj -> Prop) (l l' : list (N * token)) : Prop :=
  forall k t' x, alookup k l' = Some t' -> In x (t_objs t') ->
    (exists t, alookup k l = Some t /\ In x (t_objs t)) \/ Q k (snd x).

Lemma tobjs_sub_refl Q l : tobjs_sub Q l l.
Proof. intros k t x Hl Hin. left. eauto. Qed.

Lemma tobjs_sub_lupd Q l k f :
  (forall t, alookup k l = Some t -> incl_or (fun x => Q k (snd x)) (t_objs t) (t_objs (f t))) -> tobjs_sub Q l (lupd k f l).
Proof.
  intros Hf k' t' x Hl Hin. rewrite alookup_lupd in Hl. destruct (N.eqb_spec k k') as [<-|]; [|left; eauto].
  destruct (alookup k l) as [t|]; [|discriminate Hl]. injection Hl as <-. destruct (Hf t eq_refl x Hin); eauto.
Qed.

Create HintDb enc.
#[local] Hint Resolve tobjs_sub_refl incl_or_refl incl_or_nil incl_or_filter incl_or_snoc incl_or_aset : enc.
(* the objects of the updated token are read off by computation *)
#[local] Hint Extern 1 (tobjs_sub _ _ (lupd _ _ _)) =>
  apply tobjs_sub_lupd; intros ? _; cbn [t_objs set_t_objs set_t_login set_t_userpin set_t_sopin] : enc.

(* the invariant, for a family K s k of admissible key identities for objects of token k *)
Section Enc.
  Variable K : state -> N -> N -> Prop.
  Hypothesis K_step : forall s o k key, K s k key -> K (fst (step s o)) k key.
  Hypothesis K_tctx : forall s k, tc_logged (tctx_of s k) = true -> K s k (tc_key (tctx_of s k)).

  Definition inv_encK (s : state) : Prop :=
    (forall k t oid o, alookup k (st_tokens s) = Some t -> In (oid, o) (t_objs t) -> obj_ok (K s k) o) /\
    (forall oid so, In (oid, so) (st_sobjs s) -> obj_ok (K s (so_tok so)) (so_obj so)).

  Lemma inv_encK_init : inv_encK init_state.
  Proof. split; [intros k t oid o H; discriminate H|intros oid so []]. Qed.

  Definition objs_ok (s s' : state) : Prop :=
    tobjs_sub (fun k => obj_ok (K s k)) (st_tokens s) (st_tokens s') /\
    incl_or (fun p => obj_ok (K s (so_tok (snd p))) (so_obj (snd p))) (st_sobjs s) (st_sobjs s').

  Lemma inv_from s s' :
    inv_encK s -> (forall k key, K s k key -> K s' k key) -> objs_ok s s' -> inv_encK s'.
  Proof.
    intros [I1 I2] HK [HT HS]. split.
    - intros k t' oid o Hl Hin. apply obj_ok_mono with (K s k); [apply HK|].
      destruct (HT k t' (oid, o) Hl Hin) as [[t [H1 H2]]|H]; [eapply I1; eauto|exact H].
    - intros oid so Hin. apply obj_ok_mono with (K s (so_tok so)); [apply HK|].
      destruct (HS (oid, so) Hin) as [H|H]; [apply (I2 oid so H)|exact H].
  Qed.

  Definition loc_tok (s : state) (l : oloc) : N :=
    match l with
    | LTok k _ => k
    | LSess oid => match alookup oid (st_sobjs s) with Some so => so_tok so | None => 0 end
    end.

  Lemma get_object_ok s oh e l ob : inv_encK s -> get_object s oh = Some (e, l, ob) -> obj_ok (K s (loc_tok s l)) ob.
  Proof.
    intros [I1 I2] H. destruct (get_object_inv _ _ _ _ _ H) as [_ Hl]. destruct l as [k oid|oid]; cbn [loc_tok].
    - destruct Hl as (_ & t & Ht & Ho). eapply I1; [exact Ht|apply alookup_In, Ho].
    - destruct Hl as (so & Hso & ->). rewrite Hso. eapply I2, alookup_In, Hso.
  Qed.

  (* the only place where two tokens meet: a handle-taking storing call encrypts under the SESSION's
     token; the keys admissible for the object's token and for the session's token must agree *)
  Definition cross_ok (s : state) (o : op) : Prop :=
    match o with
    | OSetAttr h oh _ | OCopy h oh _ =>
        forall x e l ob, get_session s h = Some x -> get_object s oh = Some (e, l, ob) ->
          forall key, K s (loc_tok s l) key <-> K s (s_tok x) key
    | _ => True
    end.

  Lemma new_object_ok s x o tok priv o1 :
    inv_encK s -> cross_ok s o -> get_session s (sess_of o) = Some x -> new_object s x o tok priv o1 ->
    obj_ok (K s (s_tok x)) o1.
  Proof.
    intros Hinv Hc Hx Hn. destruct Hn; cbn [sess_of cross_ok] in *.
    - eapply create_obj_ok; [eassumption|apply K_tctx|eassumption].
    - eapply copy_obj_ok; try eassumption; [reflexivity|apply K_tctx|].
      eapply obj_ok_mono; [|eapply get_object_ok; eassumption]. intros key. apply (Hc _ _ _ _ Hx ltac:(eassumption)).
  Qed.

  Lemma set_object_ok s h oh x e l ob tm o1 :
    inv_encK s -> cross_ok s (OSetAttr h oh tm) -> get_session s h = Some x -> get_object s oh = Some (e, l, ob) ->
    save_template (tctx_of s (s_tok x)) true (o_private ob) tm OBJECT_OP_SET ob = (CKR_OK, o1) -> obj_ok (K s (loc_tok s l)) o1.
  Proof.
    intros Hinv Hc Hx Ho H. eapply set_obj_ok; [|eapply get_object_ok; eassumption|exact H].
    intros Hl. apply (Hc _ _ _ _ Hx Ho), K_tctx, Hl.
  Qed.

  Theorem step_objs_ok (s : state) (o : op) : inv_encK s -> cross_ok s o -> objs_ok s (fst (step s o)).
  Proof.
    intros Hinv Hc. unfold objs_ok. destruct (step_trans s o) as [T | ->]; [|split; [apply tobjs_sub_refl|apply incl_or_refl]].
    trans_cases T; unfold regs, aremove; simp_state.
    14: { (* a session object keeps its token *)
      this_is c_setattr_sobj.
      pose proof (set_object_ok _ _ _ _ _ _ _ _ _ Hinv Hc ltac:(eassumption) ltac:(eassumption) ltac:(eassumption)) as Ho1; cbn [loc_tok] in Ho1.
      split; [apply tobjs_sub_refl|]. apply incl_or_lupd. intros so Hso. rewrite Hso in Ho1. exact Ho1. }
    13: (this_is c_setattr_tobj;
         pose proof (set_object_ok _ _ _ _ _ _ _ _ _ Hinv Hc ltac:(eassumption) ltac:(eassumption) ltac:(eassumption)) as Ho1; cbn [loc_tok] in Ho1).
    9-10: match goal with H : new_object _ _ _ _ _ _ |- _ => pose proof (new_object_ok _ _ _ _ _ _ Hinv Hc ltac:(eassumption) H) as Ho1 end.
    7: (this_is c_token; match goal with H : tok_update _ _ _ _ _ |- _ => destruct H end).
    3: { (* a new token has no objects *)
      this_is c_newtoken. split; [|apply incl_or_refl]. intros k' t' x Hl Hin. rewrite alookup_app in Hl.
      destruct (alookup k' (st_tokens s)) as [t|]; [injection Hl as <-; left; eauto|].
      cbn in Hl. destruct (label =? k'); [injection Hl as <-; destruct Hin|discriminate Hl]. }
    1: { (* the tokens keep their objects, the session objects go *)
      this_is c_restart. split; [|intros ? []]. intros k t' x Hl Hin. rewrite restart_lookup in Hl.
      destruct (alookup k (st_tokens s)) as [t|]; [|discriminate Hl]. injection Hl as <-. left; eauto. }
    (* otherwise the token table changes under one key ([lupd]): login state and PINs, or an object appended,
       replaced or removed; the session objects are filtered, or one is appended *)
    all: split; eauto with enc.
  Qed.

  Theorem step_inv_encK (s : state) (o : op) : inv_encK s -> cross_ok s o -> inv_encK (fst (step s o)).
  Proof.
    intros Hinv Hc. apply inv_from with s; [exact Hinv|intros k key; apply K_step|apply step_objs_ok; assumption].
  Qed.
End Enc.

(* instance 1, for every history: ciphertext under the master key of SOME existing token *)
Definition own_key (s : state) (k key : N) : Prop := tok_key s k = Some key.
Definition live_key (s : state) (k key : N) : Prop := exists j, tok_key s j = Some key.

Lemma own_key_tctx s k : tc_logged (tctx_of s k) = true -> own_key s k (tc_key (tctx_of s k)).
Proof. unfold own_key, tok_key, tctx_of. destruct (alookup k (st_tokens s)); cbn; [reflexivity|discriminate]. Qed.
Lemma live_key_step s o k key : live_key s k key -> live_key (fst (step s o)) k key.
Proof. intros [j H]. exists j. apply step_keeps_key. exact H. Qed.
Lemma live_key_tctx s k : tc_logged (tctx_of s k) = true -> live_key s k (tc_key (tctx_of s k)).
Proof. intros H. exists k. apply own_key_tctx. exact H. Qed.

Definition inv_enc_live : state -> Prop := inv_encK live_key.

Theorem step_inv_enc_live (s : state) (o : op) : inv_enc_live s -> inv_enc_live (fst (step s o)).
Proof.
  intros H. apply (step_inv_encK live_key live_key_step live_key_tctx); [exact H|].
  (* [live_key] does not look at its token, so session and object need not be on the same one *)
  destruct o; cbn; auto; intros; reflexivity.
Qed.

Theorem inv_enc_live_reachable (ops : list op) : inv_enc_live (exec init_state ops).
Proof. apply exec_invariant; [exact step_inv_enc_live|apply inv_encK_init]. Qed.

Definition stored_obj (s : state) (o : obj) : Prop :=
  (exists k t oid, alookup k (st_tokens s) = Some t /\ In (oid, o) (t_objs t)) \/
  (exists oid so, In (oid, so) (st_sobjs s) /\ so_obj so = o).

(* instance 2: the object's OWN token, for calls whose session and handle agree on the token *)
Definition inv_enc_own : state -> Prop := inv_encK own_key.

Lemma inv_enc_own_spec (s : state) : inv_enc_own s -> inv_enc s.
Proof.
  assert (Hobj : forall k t o, alookup k (st_tokens s) = Some t -> obj_ok (own_key s k) o -> obj_enc_ok (t_key t) o).
  { intros k t o Hl Hok Hp a v Hin. unfold obj_ok in Hok. rewrite Hp in Hok. specialize (Hok a v Hin).
    destruct v; cbn in *; auto. destruct Hok as [E|(key & E & Hk)]; [left; exact E|right].
    unfold own_key, tok_key in Hk. rewrite Hl in Hk. cbn in Hk. congruence. }
  intros [I1 I2]. split.
  - intros k t oid o Hl Hin. eapply Hobj; [exact Hl|eapply I1; eauto].
  - intros oid so t Hin Hl. eapply Hobj; [exact Hl|eapply I2; eauto].
Qed.

(* session and object handle denote the same token ([handle_on] of TokenFacts.v) *)
Definition same_token_op (s : state) (o : op) : Prop :=
  match o with
  | OSetAttr h oh _ | OCopy h oh _ => forall x, get_session s h = Some x -> handle_on s oh (s_tok x)
  | _ => True
  end.

Lemma handle_on_loc s oh j e l ob : handle_on s oh j -> get_object s oh = Some (e, l, ob) -> loc_tok s l = j.
Proof.
  intros H Ho. destruct (H e l ob Ho) as [_ Hl]. destruct l as [k oid|oid]; cbn [loc_tok]; [exact Hl|].
  destruct (get_object_inv _ _ _ _ _ Ho) as [_ (so & Hso & _)]. rewrite Hso. apply Hl, Hso.
Qed.

Lemma same_token_cross s o : same_token_op s o -> cross_ok own_key s o.
Proof.
  destruct o; cbn; auto; intros H x e l ob Hx Ho key; rewrite (handle_on_loc _ _ _ _ _ _ (H x Hx) Ho); reflexivity.
Qed.

Theorem step_inv_enc (s : state) (o : op) : inv_enc_own s -> same_token_op s o -> inv_enc_own (fst (step s o)).
Proof. intros H Hc. apply (step_inv_encK own_key step_keeps_key own_key_tctx); [exact H|apply same_token_cross; exact Hc]. Qed.

Fixpoint same_token_trace (s : state) (ops : list op) : Prop :=
  match ops with
  | [] => True
  | o :: r => same_token_op s o /\ same_token_trace (fst (step s o)) r
  end.

Theorem inv_enc_trace (ops : list op) : forall s, inv_enc_own s -> same_token_trace s ops -> inv_enc_own (exec s ops).
Proof.
  intros s Hinv Hc. refine (proj1 (exec_along (fun s r => inv_enc_own s /\ same_token_trace s r) _ ops s (conj Hinv Hc))).
  intros s0 o r [Hi [Ho Hr]]. split; [apply step_inv_enc; assumption|exact Hr].
Qed.

Corollary inv_enc_same_token_reachable (ops : list op) :
  same_token_trace init_state ops -> inv_enc (exec init_state ops).
Proof. intros H. apply inv_enc_own_spec. apply inv_enc_trace; [apply inv_encK_init|exact H]. Qed.

(* an executable form of the side condition, for concrete histories *)
Definition same_token_opb (s : state) (o : op) : bool :=
  match o with
  | OSetAttr h oh _ | OCopy h oh _ =>
      match get_session s h, get_object s oh with
      | Some x, Some (e, l, _) => (h_tok e =? s_tok x) && (loc_tok s l =? s_tok x)
      | _, _ => true
      end
  | _ => true
  end.
Fixpoint same_token_traceb (s : state) (ops : list op) : bool :=
  match ops with
  | [] => true
  | o :: r => same_token_opb s o && same_token_traceb (fst (step s o)) r
  end.

Lemma same_token_opb_sound s o : same_token_opb s o = true -> same_token_op s o.
Proof.
  destruct o; cbn; auto.
  (* C_CopyObject and C_SetAttributeValue: the two tests are the two halves of [handle_on] *)
  all: intros H x Hx e l ob Ho; rewrite Hx, Ho in H; apply andb_true_iff in H; destruct H as [H1 H2];
       apply N.eqb_eq in H1; apply N.eqb_eq in H2; split; [exact H1|].
  all: destruct l as [k oid|oid]; cbn [loc_tok] in H2; [exact H2|intros so Hso; rewrite Hso in H2; exact H2].
Qed.
Lemma same_token_traceb_sound ops : forall s, same_token_traceb s ops = true -> same_token_trace s ops.
Proof.
  induction ops as [|o r IH]; intros s; cbn; [auto|]. intros H. apply andb_true_iff in H. destruct H as [H1 H2].
  split; [apply same_token_opb_sound; exact H1|apply IH; exact H2].
Qed.

(* the wanted statement is false: cross-token C_SetAttributeValue / C_CopyObject *)
Definition enc_pin : bytes := [49; 50; 51; 52].
Definition enc_upin : bytes := [53; 54; 55; 56].
Definition enc_cls : tentry := mkT CKA_CLASS (Some [0; 0; 0; 0; 0; 0; 0; 0]) 8.
(* tokens 0 and 1 (master keys 1 and 2), one R/W session on each (handles 1 and 2), the user logged in on both *)
Definition enc_two_tokens : list op :=
  [OInit; OInitToken TFree (Some enc_pin) 0; OInitToken TFree (Some enc_pin) 1;
   OOpen (TTok 0) 6; OLogin 1 CKU_SO (Some enc_pin); OInitPin 1 (Some enc_upin); OLogout 1; OLogin 1 CKU_USER (Some enc_upin);
   OOpen (TTok 1) 6; OLogin 2 CKU_SO (Some enc_pin); OInitPin 2 (Some enc_upin); OLogout 2; OLogin 2 CKU_USER (Some enc_upin)].
(* a private token object on token 1 (handle 3) *)
Definition enc_private_on_1 : op :=
  OCreate 2 [enc_cls; mkT CKA_TOKEN (Some [1]) 1; mkT CKA_LABEL (Some [65]) 1; mkT CKA_VALUE (Some [7; 8]) 2].

(* the session of token 0 sets the label of token 1's private object: stored under key 1 inside token 1 (key 2) *)
Definition enc_refute_setattr : list op :=
  enc_two_tokens ++ [enc_private_on_1; OSetAttr 1 3 [mkT CKA_LABEL (Some [66]) 1]].
(* the session of token 0 copies token 1's private object: the copy lives on token 0 (key 1), values under key 2 *)
Definition enc_refute_copy : list op :=
  enc_two_tokens ++ [enc_private_on_1; OCopy 1 3 [mkT CKA_TOKEN (Some [1]) 1]].

Example enc_refute_all_ok :
  map rv_of (run init_state enc_refute_setattr) = map (fun _ => Some CKR_OK) enc_refute_setattr /\
  map rv_of (run init_state enc_refute_copy) = map (fun _ => Some CKR_OK) enc_refute_copy.
Proof. vm_compute. split; reflexivity. Qed.

Definition tok_attr (s : state) (k oid a : N) : option osattr :=
  match alookup k (st_tokens s) with
  | Some t => match alookup oid (t_objs t) with Some o => alookup a o | None => None end
  | None => None
  end.

Lemma tok_attr_In s k oid a v :
  tok_attr s k oid a = Some v -> exists t o, alookup k (st_tokens s) = Some t /\ In (oid, o) (t_objs t) /\ In (a, v) o.
Proof.
  unfold tok_attr. destruct (alookup k (st_tokens s)) as [t|]; [|discriminate].
  destruct (alookup oid (t_objs t)) as [o|] eqn:Eo; [|discriminate]. intros H.
  exists t, o. repeat split; auto using alookup_In.
Qed.

Lemma inv_enc_refuted_by (s : state) (k oid a key key' b0 : N) (b : bytes) :
  tok_key s k = Some key -> key' <> key ->
  tok_attr s k oid a = Some (ABytes (Some key') (b0 :: b)) ->
  tok_attr s k oid CKA_PRIVATE = Some (ABool true) -> ~ inv_enc s.
Proof.
  intros Hk Hne Ha Hp [I1 _]. unfold tok_attr, tok_key in *.
  destruct (alookup k (st_tokens s)) as [t|] eqn:Et; [|discriminate Ha].
  destruct (alookup oid (t_objs t)) as [o|] eqn:Eo; [|discriminate Ha].
  assert (Hpriv : o_private o = true) by (unfold o_private, obj_bool; rewrite Hp; reflexivity).
  destruct (I1 k t oid o Et (alookup_In _ _ _ Eo) Hpriv a _ (alookup_In _ _ _ Ha)) as [E|E]; [discriminate E|].
  cbn in Hk. congruence.
Qed.

Lemma inv_enc_refuted_setattr : ~ inv_enc (exec init_state enc_refute_setattr).
Proof. apply (inv_enc_refuted_by _ 1 1 CKA_LABEL 2 1 66 []); vm_compute; congruence. Qed.

Lemma inv_enc_refuted_copy : ~ inv_enc (exec init_state enc_refute_copy).
Proof. apply (inv_enc_refuted_by _ 0 2 CKA_VALUE 1 2 7 [8]); vm_compute; congruence. Qed.

Theorem inv_enc_refuted : exists ops, ~ inv_enc (exec init_state ops).
Proof. exists enc_refute_setattr. apply inv_enc_refuted_setattr. Qed.

(* both histories break exactly the side condition of [inv_enc_trace]; what survives in them is
   [inv_enc_live_reachable]: still a ciphertext, under the other token's key *)
Example enc_refute_not_same_token :
  same_token_traceb init_state enc_refute_setattr = false /\ same_token_traceb init_state enc_refute_copy = false.
Proof. vm_compute. split; reflexivity. Qed.

(* a reachable state: token 0 (master key 1), user logged in; object 1: private (default) with CKA_VALUE 07 08;
   object 2: public with CKA_VALUE 09; object 3: the copy of object 2 (handle 3) with CKA_PRIVATE = true *)
Definition enc_example_ops : list op :=
  [OInit; OInitToken TFree (Some enc_pin) 0; OOpen (TTok 0) 6; OLogin 1 CKU_SO (Some enc_pin); OInitPin 1 (Some enc_upin);
   OLogout 1; OLogin 1 CKU_USER (Some enc_upin);
   OCreate 1 [enc_cls; mkT CKA_TOKEN (Some [1]) 1; mkT CKA_VALUE (Some [7; 8]) 2];
   OCreate 1 [enc_cls; mkT CKA_TOKEN (Some [1]) 1; mkT CKA_PRIVATE (Some [0]) 1; mkT CKA_VALUE (Some [9]) 1];
   OCopy 1 3 [mkT CKA_PRIVATE (Some [1]) 1]].

Example enc_example :
  let s := exec init_state enc_example_ops in
  map rv_of (run init_state enc_example_ops) = map (fun _ => Some CKR_OK) enc_example_ops /\
  tok_key s 0 = Some 1 /\
  tok_attr s 0 1 CKA_PRIVATE = Some (ABool true) /\ tok_attr s 0 1 CKA_VALUE = Some (ABytes (Some 1) [7; 8]) /\
  tok_attr s 0 2 CKA_PRIVATE = Some (ABool false) /\ tok_attr s 0 2 CKA_VALUE = Some (ABytes None [9]) /\
  tok_attr s 0 3 CKA_PRIVATE = Some (ABool true) /\ tok_attr s 0 3 CKA_VALUE = Some (ABytes (Some 1) [9]) /\
  same_token_traceb init_state enc_example_ops = true.
Proof. vm_compute. repeat split; reflexivity. Qed.

(* Why the inductive invariant also says "public objects are clear": [inv_enc] alone is not kept by a step,
   even a same-token one.  In the (unreachable) state below a PUBLIC object holds a ciphertext under a foreign
   key 99; the public -> private upgrade of C_CopyObject re-encrypts clear values only and keeps that
   ciphertext, now inside a private object.  [inv_enc_own] excludes such states ([obj_ok]: public objects are
   entirely clear) and is inductive ([step_inv_enc]). *)
Definition enc_odd_public : obj :=
  [ (CKA_CLASS, AULong CKO_DATA); (CKA_TOKEN, ABool true); (CKA_PRIVATE, ABool false); (CKA_MODIFIABLE, ABool true);
    (CKA_LABEL, ABytes None []); (CKA_COPYABLE, ABool true); (CKA_DESTROYABLE, ABool true);
    (CKA_APPLICATION, ABytes None []); (CKA_OBJECT_ID, ABytes None []); (CKA_VALUE, ABytes (Some 99) [7]) ].
Definition enc_odd_state : state :=
  mkState true [(0, mkToken enc_pin (Some enc_upin) LUser 1 [(1, enc_odd_public)])] [(1, mkSession 0 true 0 [])]
    [(1, mkHandle CKH_SESSION 0 CK_INVALID_HANDLE false 0); (2, mkHandle CKH_OBJECT 0 CK_INVALID_HANDLE false 1)] 2 [] 2 2.

Lemma inv_enc_alone_not_inductive :
  exists s o, inv_enc s /\ same_token_op s o /\ ~ inv_enc (fst (step s o)).
Proof.
  exists enc_odd_state, (OCopy 1 2 [mkT CKA_PRIVATE (Some [1]) 1]). split; [|split].
  - split; [|intros oid so t []]. intros k t oid o Hl Hin Hp. unfold enc_odd_state in Hl. cbn [st_tokens alookup] in Hl. destruct (0 =? k); [|discriminate Hl].
    injection Hl as <-. destruct Hin as [[= _ <-]|[]]. vm_compute in Hp. discriminate Hp.
  - apply same_token_opb_sound. vm_compute. reflexivity.
  - apply (inv_enc_refuted_by _ 0 2 CKA_VALUE 1 99 7 []); vm_compute; congruence.
Qed.
