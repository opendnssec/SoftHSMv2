(* P11/EntryModel.v — the core model's decisions ARE the code's decisions: for entry points that the translator expresses
   to the end (C_InitPIN, C_SetPIN, C_InitToken; C_Login with Token::loginSO / loginUser below it), the return code of
   the model's step equals the regenerated C++ function applied to the abstraction of the model state; for
   SessionManager::openSession, C_DestroyObject, C_FindObjectsInit, C_GetAttributeValue and C_SetAttributeValue the
   same holds of the guards before the first statement outside the translated fragment.  This ties the model to the
   source by proof (T), where the K-api stream ties it by correspondence.  (C01, C03, C04, C08, C09, C14, C19) *)
From Coq Require Import List NArith Bool Lia ZifyBool.
From SoftHSM Require Import Gen_Const Gen_Pure Gen_Entry Defs Core.
Import ListNotations.
Local Open Scope N_scope.

Definition ptr_of {A} (o : option A) : N := match o with Some _ => 1 | None => 0 end.
Definition len_of (o : option bytes) : N := match o with Some p => blen p | None => 0 end.

(* the PIN length test of the code (MIN_PIN_LEN, MAX_PIN_LEN) is the model's *)
Lemma len_range_code_model n : ((n <? 4) || (255 <? n)) = negb (pin_len_ok n).
Proof. unfold pin_len_ok. cbv [MIN_PIN_LEN MAX_PIN_LEN]. lia. Qed.

(* Token::initUserPIN answers CKR_OK once the session-level guards have passed (model: the PIN is stored) *)
Definition initpin_env (s : state) (h : N) (x : session) (pin : option bytes) : C_InitPIN.env :=
  fold_right (fun f e => f e) C_InitPIN.default
    [(C_InitPIN.set_handleManager_getSession (fun _ => 1));
     (C_InitPIN.set_session_getState (sess_state s x));
     (C_InitPIN.set_session_getToken 1);
     (C_InitPIN.set_this_isInitialised 1);
     (C_InitPIN.set_token_initUserPIN_at1 (fun _ => CKR_OK));
     (C_InitPIN.set_hSession h);
     (C_InitPIN.set_pPin (ptr_of pin));
     (C_InitPIN.set_ulPinLen (len_of pin))].

Theorem initpin_model_is_code (s : state) (h : N) (x : session) (pin : option bytes) :
  st_init s = true -> get_session s h = Some x ->
  rv_of (snd (step s (OInitPin h pin))) = Some (C_InitPIN.app (initpin_env s h x pin)).
Proof.
  intros Hi Hs. unfold step, initpin_env. rewrite Hi, Hs. C_InitPIN.open_env. cbv [CKS_RW_SO_FUNCTIONS]. cbn [N.eqb negb].
  destruct (sess_state s x =? 4); cbn [negb]; [|reflexivity].        (* 4 = CKS_RW_SO_FUNCTIONS: only the SO initialises the user PIN *)
  destruct pin as [p|]; cbn [ptr_of len_of N.eqb]; [|reflexivity].
  rewrite len_range_code_model. destruct (pin_len_ok (blen p)); reflexivity.
Qed.

(* what Token::setUserPIN / Token::setSOPIN answer in the model: the old PIN must be the current one *)
Definition set_user_rv (t : token) (po : bytes) : N :=
  match t_userpin t with Some up => if pin_ok up po then CKR_OK else CKR_PIN_INCORRECT | None => CKR_PIN_INCORRECT end.
Definition set_so_rv (t : token) (po : bytes) : N := if pin_ok (t_sopin t) po then CKR_OK else CKR_PIN_INCORRECT.

Definition setpin_env (s : state) (h : N) (x : session) (t : token) (oldp newp : option bytes) : C_SetPIN.env :=
  fold_right (fun f e => f e) C_SetPIN.default
    [(C_SetPIN.set_handleManager_getSession (fun _ => 1));
     (C_SetPIN.set_session_getState (sess_state s x));
     (C_SetPIN.set_session_getToken 1);
     (C_SetPIN.set_this_isInitialised 1);
     (C_SetPIN.set_token_setSOPIN_at1 (fun _ _ => match oldp with Some po => set_so_rv t po | None => 0 end));
     (C_SetPIN.set_token_setUserPIN_at2 (fun _ _ => match oldp with Some po => set_user_rv t po | None => 0 end));
     (C_SetPIN.set_hSession h);
     (C_SetPIN.set_pOldPin (ptr_of oldp));
     (C_SetPIN.set_ulOldLen (len_of oldp));
     (C_SetPIN.set_pNewPin (ptr_of newp));
     (C_SetPIN.set_ulNewLen (len_of newp))].

Theorem setpin_model_is_code (s : state) (h : N) (x : session) (t : token) (oldp newp : option bytes) :
  st_init s = true -> get_session s h = Some x -> alookup (s_tok x) (st_tokens s) = Some t ->
  rv_of (snd (step s (OSetPin h oldp newp))) = Some (C_SetPIN.app (setpin_env s h x t oldp newp)).
Proof.
  intros Hi Hs Ht. unfold step, setpin_env. rewrite Hi, Hs, Ht. C_SetPIN.open_env.
  cbv [CKS_RW_PUBLIC_SESSION CKS_RW_USER_FUNCTIONS CKS_RW_SO_FUNCTIONS set_user_rv set_so_rv]. cbn [N.eqb negb].
  destruct oldp as [po|]; cbn [ptr_of len_of N.eqb]; [|destruct newp; reflexivity].
  destruct newp as [pn|]; cbn [ptr_of len_of N.eqb]; [|reflexivity].
  rewrite len_range_code_model. destruct (pin_len_ok (blen pn)); cbn [negb]; [|reflexivity].
  (* the session states, as the code has them: 2, 3, 4 = CKS_RW_PUBLIC_SESSION, CKS_RW_USER_FUNCTIONS, CKS_RW_SO_FUNCTIONS *)
  destruct ((sess_state s x =? 2) || (sess_state s x =? 3)).
  - destruct (t_userpin t) as [up|]; [destruct (pin_ok up po)|]; reflexivity.
  - destruct (sess_state s x =? 4); [destruct (pin_ok (t_sopin t) po)|]; reflexivity.
Qed.

(* what Slot::initToken answers in the model (None: outside the modelled fragment - relabelling, label clash) *)
Definition slot_inittoken_rv (s : state) (tk : option N) (p : bytes) (label : N) : option N :=
  match tk with
  | Some k => match alookup k (st_tokens s) with
              | Some t0 => if negb (k =? label) then None else Some (if pin_ok (t_sopin t0) p then CKR_OK else CKR_PIN_INCORRECT)
              | None => None
              end
  | None => if amem label (st_tokens s) then None else Some CKR_OK
  end.

Definition inittoken_env (s : state) (tk : option N) (pin : option bytes) (inner : N) : C_InitToken.env :=
  fold_right (fun f e => f e) C_InitToken.default
    [(C_InitToken.set_sessionManager_haveSession (fun _ => match tk with Some k => if existsb (fun p => s_tok (snd p) =? k) (st_sessions s) then 1 else 0 | None => 0 end));
     (C_InitToken.set_slotManager_getSlot (fun _ => 1));
     (C_InitToken.set_slot_initToken_at1 (fun _ _ => inner));
     (C_InitToken.set_this_isInitialised 1);
     (C_InitToken.set_pPin (ptr_of pin));
     (C_InitToken.set_ulPinLen (len_of pin))].

Theorem inittoken_model_is_code (s : state) (t : tref) (tk : option N) (pin : option bytes) (label inner : N) :
  st_init s = true -> resolve s t = Some tk ->
  (forall p, pin = Some p -> slot_inittoken_rv s tk p label = Some inner) ->
  rv_of (snd (step s (OInitToken t pin label))) = Some (C_InitToken.app (inittoken_env s tk pin inner)).
Proof.
  intros Hi Hr Hin. unfold step, inittoken_env. rewrite Hi, Hr. C_InitToken.open_env. cbn [N.eqb negb].
  destruct tk as [k|]; [destruct (existsb _ (st_sessions s)); [reflexivity|]|]; cbn [N.eqb negb].
  all: destruct pin as [p|]; cbn [ptr_of len_of N.eqb]; [|reflexivity].
  all: rewrite len_range_code_model; destruct (pin_len_ok (blen p)); cbn [negb]; [|reflexivity].
  all: specialize (Hin p eq_refl); unfold slot_inittoken_rv in Hin.
  - destruct (alookup k (st_tokens s)) as [t0|]; [|discriminate Hin].
    destruct (negb (k =? label)); [discriminate Hin|]. injection Hin as <-.
    destruct (pin_ok (t_sopin t0) p); reflexivity.
  - destruct (amem label (st_tokens s)); [discriminate Hin|]. injection Hin as <-. reflexivity.
Qed.

(* no re-authentication is pending in the modelled fragment *)
Definition login_env_with (s : state) (h : N) (x : session) (utype ptr len : N) (so_fn user_fn : N -> N) : C_Login.env :=
  fold_right (fun f e => f e) C_Login.default
    [(C_Login.set_handleManager_getSession (fun _ => 1));
     (C_Login.set_sessionManager_haveROSession (fun _ => if existsb (fun q => (s_tok (snd q) =? s_tok x) && negb (s_rw (snd q))) (st_sessions s) then 1 else 0));
     (C_Login.set_session_getReAuthentication 0);
     (C_Login.set_session_getToken 1);
     (C_Login.set_this_isInitialised 1);
     (C_Login.set_token_loginSO_at3 so_fn);
     (C_Login.set_token_loginUser_at2 user_fn);
     (C_Login.set_hSession h);
     (C_Login.set_userType utype);
     (C_Login.set_pPin ptr);
     (C_Login.set_ulPinLen len)].

From SoftHSM Require Import Gen_Token.

(* one level down (gen/Gen_Token.v), Token::loginUser / Token::loginSO: the secure data manager answers "SO / user
   logged in" from the model's login state, the user PIN blob is empty iff no user PIN is set, and
   SecureDataManager::login* accepts exactly the current PIN *)
Definition token_loginuser_env (t : token) (p : bytes) : Token_loginUser.env :=
  fold_right (fun f e => f e) Token_loginUser.default
    [(Token_loginUser.set_hv2_getTokenFlags_ok true);
     (Token_loginUser.set_sdm_getUserPINBlob_size (match t_userpin t with Some _ => 1 | None => 0 end));
     (Token_loginUser.set_sdm_isSOLoggedIn (is_so (t_login t)));
     (Token_loginUser.set_sdm_isUserLoggedIn (is_user (t_login t)));
     (Token_loginUser.set_sdm_loginUser (fun _ => match t_userpin t with Some up => pin_ok up p | None => false end));
     (Token_loginUser.set_this_sdm 1)].

Definition token_loginso_env (t : token) (p : bytes) : Token_loginSO.env :=
  fold_right (fun f e => f e) Token_loginSO.default
    [(Token_loginSO.set_hv2_getTokenFlags_ok true);
     (Token_loginSO.set_sdm_isSOLoggedIn (is_so (t_login t)));
     (Token_loginSO.set_sdm_isUserLoggedIn (is_user (t_login t)));
     (Token_loginSO.set_sdm_loginSO (fun _ => pin_ok (t_sopin t) p));
     (Token_loginSO.set_this_sdm 1)].

(* C_Login down to the token: entry point and token level are both the regenerated code (a NULL PIN never reaches
   the token) *)
Theorem login_model_is_code (s : state) (h : N) (x : session) (t : token) (utype : N) (pin : option bytes) :
  st_init s = true -> get_session s h = Some x -> alookup (s_tok x) (st_tokens s) = Some t ->
  rv_of (snd (step s (OLogin h utype pin))) =
  Some (C_Login.app (login_env_with s h x utype (ptr_of pin) (len_of pin)
          (fun _ => match pin with Some p => Token_loginSO.app (token_loginso_env t p) | None => 0 end)
          (fun _ => match pin with Some p => Token_loginUser.app (token_loginuser_env t p) | None => 0 end))).
Proof.
  intros Hi Hs Ht. unfold step, login_env_with, token_loginso_env, token_loginuser_env. rewrite Hi, Hs, Ht.
  C_Login.open_env. Token_loginSO.open_env. Token_loginUser.open_env. cbv [CKU_SO CKU_USER CKU_CONTEXT_SPECIFIC]. cbn [N.eqb negb].
  destruct pin as [p|]; cbn [ptr_of len_of N.eqb]; [|reflexivity].
  destruct (utype =? 0); [|destruct (utype =? 1); [|destruct (utype =? 2); reflexivity]].
  - destruct (existsb _ (st_sessions s)); cbn [N.eqb negb]; [reflexivity|].
    destruct (t_login t); [destruct (pin_ok (t_sopin t) p)|..]; reflexivity.
  - destruct (t_login t); [destruct (t_userpin t) as [up|]; [destruct (pin_ok up p)|]|..]; reflexivity.
Qed.

Theorem login_chain_is_code (s : state) (h : N) (x : session) (t : token) (utype : N) (p : bytes) :
  st_init s = true -> get_session s h = Some x -> alookup (s_tok x) (st_tokens s) = Some t ->
  rv_of (snd (step s (OLogin h utype (Some p)))) =
  Some (C_Login.app (login_env_with s h x utype 1 (blen p)
          (fun _ => Token_loginSO.app (token_loginso_env t p)) (fun _ => Token_loginUser.app (token_loginuser_env t p)))).
Proof. exact (login_model_is_code s h x t utype (Some p)). Qed.

(* 2 = CKF_RW_SESSION; the case split of C03_opensession_model_is_code *)
Lemma land2_cases x : N.land x 2 = 0 \/ N.land x 2 = 2.
Proof. destruct x as [|p]; [left; reflexivity|]. destruct p as [[q|q|]|[q|q|]|]; cbn; auto. Qed.

(* C_OpenSession -> SessionManager::openSession: the guards before a session is allocated (the allocation answers CKR_OK);
   the theorem is C03_opensession_model_is_code (props/Properties_C03.v) *)
(* `lr`: whether the loop that looks for a free slot in the session vector leaves the function (it returns CKR_OK, as does
   the code after it: zz_rest) - the decision does not depend on it *)
Definition opensession_env (s : state) (k flags : N) (lr : bool) : SessionManager_openSession.env :=
  fold_right (fun f e => f e) SessionManager_openSession.default
    [(SessionManager_openSession.set_hv3_loop_returns lr);
     (SessionManager_openSession.set_slot_getToken 1);
     (SessionManager_openSession.set_token_isInitialized true);
     (SessionManager_openSession.set_token_isSOLoggedIn (is_so (tok_login s k)));
     (SessionManager_openSession.set_zz_rest CKR_OK);
     (SessionManager_openSession.set_slot 1);
     (SessionManager_openSession.set_flags flags);
     (SessionManager_openSession.set_phSession 1)].

(* C_DestroyObject: the guards (handle, write access, CKA_DESTROYABLE) of the model are those of the regenerated code;
   the destruction itself (zz_rest) answers CKR_OK *)
Definition destroy_env (s : state) (h oh : N) (x : session) : C_DestroyObject.env :=
  fold_right (fun f e => f e) C_DestroyObject.default
    [(C_DestroyObject.set_handleManager_getObject (fun _ => match get_object s oh with Some _ => 1 | None => 0 end));
     (C_DestroyObject.set_handleManager_getSession (fun _ => 1));
     (C_DestroyObject.set_haveWrite gen_haveWrite);
     (C_DestroyObject.set_object_getBooleanValue (fun a d => b2n (obj_bool (match get_object s oh with Some (_, _, o) => o | None => [] end) a d)));
     (C_DestroyObject.set_object_isValid 1);
     (C_DestroyObject.set_session_getState (sess_state s x));
     (C_DestroyObject.set_session_getToken 1);
     (C_DestroyObject.set_this_isInitialised 1);
     (C_DestroyObject.set_zz_rest CKR_OK);
     (C_DestroyObject.set_hSession h);
     (C_DestroyObject.set_hObject oh)].

Theorem destroy_model_is_code (s : state) (h oh : N) (x : session) :
  st_init s = true -> get_session s h = Some x ->
  rv_of (snd (step s (ODestroy h oh))) = Some (C_DestroyObject.app (destroy_env s h oh x)).
Proof.
  intros Hi Hs. unfold step, destroy_env. rewrite Hi, Hs. C_DestroyObject.open_env. cbn [N.eqb negb orb].
  destruct (get_object s oh) as [[[e loc] ob]|]; cbn [N.eqb negb orb]; [|reflexivity].
  change (gen_haveWrite _ _ _) with (have_write (sess_state s x) (o_token ob) (o_private ob)). cbv [CKR_OK CKA_DESTROYABLE].
  destruct (have_write _ _ _ =? 0); cbn [negb].
  - destruct (obj_bool ob 370 true); reflexivity.                      (* 370 = CKA_DESTROYABLE *)
  - (* the code only logs on CKR_USER_NOT_LOGGED_IN (257) and CKR_SESSION_READ_ONLY (181) *)
    destruct (_ =? 257), (_ =? 181); reflexivity.
Qed.

(* C_FindObjectsInit: what the code hands to the search loop.  The regenerated prefix passes its local
   `isPublicSession` to the rest of the function; the model's flag `public` (which decides whether private objects are
   skipped) is that value, and the only refusal before the loop (an operation in progress) is the model's. *)
Definition model_public (st : N) : bool := negb ((st =? CKS_RO_USER_FUNCTIONS) || (st =? CKS_RW_USER_FUNCTIONS)).

Definition findinit_env (s : state) (h : N) (x : session) (rest : bool -> N) (ptr cnt : N) : C_FindObjectsInit.env :=
  fold_right (fun f e => f e) C_FindObjectsInit.default
    [(C_FindObjectsInit.set_handleManager_getSession (fun _ => 1));
     (C_FindObjectsInit.set_session_getOpType (s_op x));
     (C_FindObjectsInit.set_session_getSlot 1);
     (C_FindObjectsInit.set_session_getState (sess_state s x));
     (C_FindObjectsInit.set_session_getToken 1);
     (C_FindObjectsInit.set_this_isInitialised 1);
     (C_FindObjectsInit.set_zz_rest rest);
     (C_FindObjectsInit.set_hSession h);
     (C_FindObjectsInit.set_pTemplate ptr);
     (C_FindObjectsInit.set_ulCount cnt)].

Theorem findinit_code_passes_model_public (s : state) (h : N) (x : session) (rest : bool -> N) (ptr cnt : N) :
  (ptr <> 0 \/ cnt = 0) ->
  C_FindObjectsInit.app (findinit_env s h x rest ptr cnt)
  = if negb (s_op x =? SESSION_OP_NONE) then CKR_OPERATION_ACTIVE else rest (model_public (sess_state s x)).
Proof.
  intros Hp. unfold findinit_env, model_public. C_FindObjectsInit.open_env. cbn [N.eqb negb orb].
  replace ((ptr =? 0) && negb (cnt =? 0)) with false by lia.
  cbv [SESSION_OP_NONE CKS_RO_USER_FUNCTIONS CKS_RW_USER_FUNCTIONS].
  destruct ((sess_state s x =? 1) || (sess_state s x =? 3)), (s_op x =? 0); reflexivity.
Qed.

(* ... and otherwise the model's step runs its search loop with that flag *)
Theorem findinit_model_uses_public (s : state) (h : N) (x : session) (tm : template) (prio : list bytes) :
  st_init s = true -> get_session s h = Some x -> (s_op x =? SESSION_OP_NONE) = true ->
  forallb (fun e => match te_val e with Some b => blen b =? te_len e | None => te_len e =? 0 end) tm = true ->
  step s (OFindInit h tm prio)
  = match find_loop (tctx_of s (s_tok x)) (model_public (sess_state s x)) (s_tok x) h tm (order_cands prio (candidates s (s_tok x))) s [] with
    | None => (s, RUnmodelled)
    | Some (s1, hs) => (upd_session s1 h (fun x => set_s_op x SESSION_OP_FIND hs), RRv CKR_OK)
    end.
Proof.
  intros Hi Hs Hop Htm. unfold step. rewrite Hi, Hs, Hop, Htm. reflexivity.
Qed.

(* C_GetAttributeValue / C_SetAttributeValue: the access decision before any attribute is touched *)
Definition obj_of (s : state) (oh : N) : obj := match get_object s oh with Some (_, _, o) => o | None => [] end.
Definition getattr_env (s : state) (h oh : N) (x : session) (rest ptr cnt : N) : C_GetAttributeValue.env :=
  fold_right (fun f e => f e) C_GetAttributeValue.default
    [(C_GetAttributeValue.set_handleManager_getObject (fun _ => match get_object s oh with Some _ => 1 | None => 0 end));
     (C_GetAttributeValue.set_handleManager_getSession (fun _ => 1));
     (C_GetAttributeValue.set_haveRead gen_haveRead);
     (C_GetAttributeValue.set_object_getBooleanValue (fun a d => b2n (obj_bool (obj_of s oh) a d)));
     (C_GetAttributeValue.set_object_isValid 1);
     (C_GetAttributeValue.set_session_getState (sess_state s x));
     (C_GetAttributeValue.set_session_getToken 1);
     (C_GetAttributeValue.set_this_isInitialised 1);
     (C_GetAttributeValue.set_newP11Object_at1 (fun _ _ => 0));
     (C_GetAttributeValue.set_p11object_loadTemplate (fun _ _ _ => rest));
     (C_GetAttributeValue.set_hSession h);
     (C_GetAttributeValue.set_hObject oh);
     (C_GetAttributeValue.set_pTemplate ptr);
     (C_GetAttributeValue.set_ulCount cnt)].
Definition setattr_env (s : state) (h oh : N) (x : session) (rest ptr cnt : N) : C_SetAttributeValue.env :=
  fold_right (fun f e => f e) C_SetAttributeValue.default
    [(C_SetAttributeValue.set_handleManager_getObject (fun _ => match get_object s oh with Some _ => 1 | None => 0 end));
     (C_SetAttributeValue.set_handleManager_getSession (fun _ => 1));
     (C_SetAttributeValue.set_haveWrite gen_haveWrite);
     (C_SetAttributeValue.set_object_getBooleanValue (fun a d => b2n (obj_bool (obj_of s oh) a d)));
     (C_SetAttributeValue.set_object_isValid 1);
     (C_SetAttributeValue.set_session_getState (sess_state s x));
     (C_SetAttributeValue.set_session_getToken 1);
     (C_SetAttributeValue.set_this_isInitialised 1);
     (C_SetAttributeValue.set_newP11Object_at1 (fun _ _ => 0));
     (C_SetAttributeValue.set_p11object_saveTemplate (fun _ _ _ _ _ => rest));
     (C_SetAttributeValue.set_hSession h);
     (C_SetAttributeValue.set_hObject oh);
     (C_SetAttributeValue.set_pTemplate ptr);
     (C_SetAttributeValue.set_ulCount cnt)].

(* the code, in terms of the model's access functions *)
Theorem getattr_code_guard (s : state) (h oh : N) (x : session) (rest ptr cnt : N) :
  ptr <> 0 ->
  C_GetAttributeValue.app (getattr_env s h oh x rest ptr cnt)
  = match get_object s oh with
    | None => CKR_OBJECT_HANDLE_INVALID
    | Some (_, _, ob) => if negb (have_read (sess_state s x) (o_token ob) (o_private ob) =? CKR_OK) then CKR_GENERAL_ERROR else rest
    end.
Proof.
  intros Hp. unfold getattr_env, obj_of. C_GetAttributeValue.open_env. cbn [N.eqb negb orb].
  destruct (N.eqb_spec ptr 0) as [E|_]; [contradiction|].
  destruct (get_object s oh) as [[[e loc] ob]|]; cbn [N.eqb negb orb]; [|reflexivity].
  change (gen_haveRead _ _ _) with (have_read (sess_state s x) (o_token ob) (o_private ob)). cbv [CKR_OK].
  (* a refusal is CKR_GENERAL_ERROR whatever it was; on CKR_USER_NOT_LOGGED_IN (257) the code only logs *)
  destruct (have_read _ _ _ =? 0); [|destruct (_ =? 257)]; reflexivity.
Qed.

Theorem setattr_code_guard (s : state) (h oh : N) (x : session) (rest ptr cnt : N) :
  ptr <> 0 ->
  C_SetAttributeValue.app (setattr_env s h oh x rest ptr cnt)
  = match get_object s oh with
    | None => CKR_OBJECT_HANDLE_INVALID
    | Some (_, _, ob) =>
        let rv := have_write (sess_state s x) (o_token ob) (o_private ob) in
        if negb (rv =? CKR_OK) then rv else if negb (obj_bool ob CKA_MODIFIABLE true) then CKR_ACTION_PROHIBITED else rest
    end.
Proof.
  intros Hp. unfold setattr_env, obj_of. C_SetAttributeValue.open_env. cbn [N.eqb negb orb].
  destruct (N.eqb_spec ptr 0) as [E|_]; [contradiction|].
  destruct (get_object s oh) as [[[e loc] ob]|]; cbn [N.eqb negb orb]; [|reflexivity].
  change (gen_haveWrite _ _ _) with (have_write (sess_state s x) (o_token ob) (o_private ob)). cbv [CKR_OK CKA_MODIFIABLE]. cbv zeta.
  destruct (have_write _ _ _ =? 0); cbn [negb].
  - destruct (obj_bool ob 368 true); reflexivity.                      (* 368 = CKA_MODIFIABLE *)
  - (* as in C_DestroyObject: on CKR_USER_NOT_LOGGED_IN (257) and CKR_SESSION_READ_ONLY (181) the code only logs *)
    destruct (_ =? 257), (_ =? 181); reflexivity.
Qed.

Theorem setattr_model_refusal_is_code (s : state) (h oh : N) (x : session) (tm : template) (rest : N) :
  st_init s = true -> get_session s h = Some x ->
  (match get_object s oh with None => True
   | Some (_, _, ob) => negb (have_write (sess_state s x) (o_token ob) (o_private ob) =? CKR_OK) = true
                        \/ obj_bool ob CKA_MODIFIABLE true = false end) ->
  rv_of (snd (step s (OSetAttr h oh tm))) = Some (C_SetAttributeValue.app (setattr_env s h oh x rest 1 (N.of_nat (length tm)))).
Proof.
  intros Hi Hs Hg. rewrite setattr_code_guard by discriminate. unfold step. rewrite Hi, Hs.
  destruct (get_object s oh) as [[[e loc] ob]|]; [cbv zeta|reflexivity].
  destruct (negb (_ =? CKR_OK)); [reflexivity|]. destruct Hg as [Hg|Hg]; [discriminate|]. rewrite Hg. reflexivity.
Qed.
