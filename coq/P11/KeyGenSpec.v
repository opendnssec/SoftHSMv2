(* P11/KeyGenSpec.v — what the functions of SoftHSM.cpp that CREATE A KEY OBJECT (generate*, derive*, C_UnwrapKey) must
   do around the object they create, stated over their regenerated, lifted translations (gen/Gen_Keys.v, trace mode):
   every call on a stateful collaborator (handle manager, object, transaction) and every write through the caller's
   handle pointer is an event of the effect list, newest first.  `keygen_ok_tail` reduces the record `keygen_ok` to a
   check of the events a path has produced between the call of CreateObject and the clean-up tail; the tactics walk the
   paths, one continuation at a time.  Nothing here is specific to one function.  (C06, C08, C09, C11, C13) *)
From Coq Require Import List NArith Bool.
From SoftHSM Require Import Gen_Const.
Import ListNotations.
Local Open Scope N_scope.

Definition R := (N * list (N * N))%type.
(* event tags of translator/shallow.py (TRACE_TAGS): 2^64-40 .. 2^64-46 *)
Definition T_GET : N := 18446744073709551576.      (* handleManager->getObject(h) *)
Definition T_HMD : N := 18446744073709551575.      (* handleManager->destroyObject(h) *)
Definition T_OBJD : N := 18446744073709551574.     (* object->destroyObject() *)
Definition T_TXS : N := 18446744073709551573.      (* object->startTransaction() *)
Definition T_COMMIT : N := 18446744073709551572.   (* object->commitTransaction() *)
Definition T_ABORT : N := 18446744073709551571.    (* object->abortTransaction() *)
Definition T_CREATE : N := 18446744073709551570.   (* this->CreateObject(.., op) *)
Definition b2n (b : bool) : N := if b then 1 else 0.

Fixpoint last_out (tag : N) (eff : list (N * N)) : option N :=
  match eff with [] => None | (t, v) :: r => if t =? tag then Some v else last_out tag r end.

Section Spec.
  (* out: the tag of `*phKey = v`; op: the OBJECT_OP_* handed to CreateObject; h: what CreateObject left in *phKey; getobj: the
     handle manager's lookup; pv, pl, pa, pn: what may be stored as CKA_VALUE, CKA_LOCAL, CKA_ALWAYS_SENSITIVE,
     CKA_NEVER_EXTRACTABLE; needv: whether a call that succeeds must have stored a CKA_VALUE *)
  Variables (out op h : N) (getobj : N -> N) (pv pl pa pn : N -> Prop) (needv : bool).

  (* the end of a failing call, newest first: the object is looked up BEFORE its handle is unregistered, the handle is
     unregistered, the object destroyed if the lookup found it, the caller's variable set to CK_INVALID_HANDLE *)
  Definition cleanup : list (N * N) :=
    (out, 0) :: (if getobj h =? 0 then [] else [(T_OBJD, getobj h)]) ++ [(T_HMD, h); (T_GET, h)].

  Set Implicit Arguments.
  Record keygen_ok (r : R) : Prop := {
    (* C06: what is stored as the key value *)
    kg_value : forall v, In (CKA_VALUE, v) (snd r) -> pv v;
    (* C08: the history attributes, and that a call that succeeds has stored them *)
    kg_history :
      (forall v, In (CKA_LOCAL, v) (snd r) -> pl v) /\ (forall v, In (CKA_ALWAYS_SENSITIVE, v) (snd r) -> pa v) /\
      (forall v, In (CKA_NEVER_EXTRACTABLE, v) (snd r) -> pn v) /\
      (fst r = 0 -> (if needv then exists v, In (CKA_VALUE, v) (snd r) else True) /\ (exists v, In (CKA_LOCAL, v) (snd r)) /\
                    (exists v, In (CKA_ALWAYS_SENSITIVE, v) (snd r)) /\ (exists v, In (CKA_NEVER_EXTRACTABLE, v) (snd r)));
    (* C09: a call that fails after CreateObject undoes the object - and nothing else - and leaves the caller's variable as
       CK_INVALID_HANDLE or untouched (h <> 0: the clean-up is guarded by `*phKey != CK_INVALID_HANDLE`; had CreateObject left
       that in the variable, there would be no handle to look up); C09 / C05: a call that succeeds destroys and aborts nothing,
       and has committed the new object's attributes *)
    kg_undo :
      (fst r <> 0 -> In (T_CREATE, op) (snd r) -> h <> 0 -> exists pre, snd r = cleanup ++ pre) /\
      (fst r <> 0 -> last_out out (snd r) = Some 0 \/ last_out out (snd r) = None) /\
      (fst r = 0 -> (forall t v, In (t, v) (snd r) -> t <> T_HMD /\ t <> T_OBJD /\ t <> T_ABORT) /\
                    In (T_CREATE, op) (snd r) /\ In (T_TXS, getobj h) (snd r) /\ In (T_COMMIT, getobj h) (snd r));
    (* C11: the only handle ever unregistered, the only object ever destroyed, are the ones this call created *)
    kg_own : (forall x, In (T_HMD, x) (snd r) -> x = h) /\ (forall o, In (T_OBJD, o) (snd r) -> o = getobj h)
  }.
  Unset Implicit Arguments.
End Spec.

(* The block that removes what a handle variable ph refers to, as the translator prints it when `*ph` is d, followed by k:
   `if ( *ph != CK_INVALID_HANDLE) { obj = getObject( *ph); destroyObject( *ph); if (obj) obj->destroyObject();
         *ph = CK_INVALID_HANDLE; }` *)
Definition undo_handle (out : N) (getobj : N -> N) (d : N) (k : list (N * N) -> R) (acc : list (N * N)) : R :=
  if negb (d =? 0) then
    let o := getobj d in
    if negb (o =? 0) then k ((out, 0) :: (T_OBJD, o) :: (T_HMD, d) :: (T_GET, d) :: acc) else k ((out, 0) :: (T_HMD, d) :: (T_GET, d) :: acc)
  else k acc.

Lemma undo_handle_eq out g d k acc : undo_handle out g d k acc = k ((if d =? 0 then [] else cleanup out d g) ++ acc).
Proof. unfold undo_handle, cleanup. destruct (d =? 0); [reflexivity|]. cbn [negb]. destruct (g d =? 0); reflexivity. Qed.

(* `if (rv != CKR_OK) { <block of b> <block of a> } return rv;`: the tail of the key-pair generators, where b is the private
   key's handle variable and a the public key's; a's block runs last, so its events are the newest and stand first.
   gen/KG_tails.v: the tail continuation of every function of Gen_Keys.v is convertible with this - for the functions that
   create one object with da := 0, which makes a's block `k acc` and its share of the list `[]` by computation (`tail1`). *)
Lemma tail2 {outa outb g da db rv acc r} :
  r = (if negb (rv =? 0) then undo_handle outb g db (undo_handle outa g da (pair rv)) acc else (rv, acc)) ->
  r = (rv, (if rv =? 0 then [] else (if da =? 0 then [] else cleanup outa da g) ++ (if db =? 0 then [] else cleanup outb db g)) ++ acc).
Proof. intros ->. rewrite !undo_handle_eq, app_assoc. destruct (rv =? 0); reflexivity. Qed.

Lemma tail1 {out g d rv acc r} :
  r = (if negb (rv =? 0) then undo_handle out g d (pair rv) acc else (rv, acc)) ->
  r = (rv, (if rv =? 0 then [] else (if d =? 0 then [] else cleanup out d g)) ++ acc).
Proof. exact (@tail2 0 out g 0 d rv acc r). Qed.

(* what the effect list may hold when the part of a function that creates the object is entered: writes of CK_INVALID_HANDLE to
   the caller's variable and look-ups - nothing destroyed, created, started, committed or stored yet *)
Definition clean (out : N) (acc : list (N * N)) : Prop :=
  forallb (fun ev => (fst ev =? T_GET) || ((fst ev =? out) && (snd ev =? 0))) acc = true.

Lemma clean_In out acc t v : clean out acc -> In (t, v) acc -> (t = out /\ v = 0) \/ t = T_GET.
Proof.
  intros Hc Hin. apply (proj1 (forallb_forall _ _) Hc) in Hin. cbn [fst snd] in Hin.
  apply orb_true_iff in Hin. destruct Hin as [Hin|Hin]; [right; exact (proj1 (N.eqb_eq _ _) Hin)|].
  apply andb_true_iff in Hin. left. split; apply N.eqb_eq; apply Hin.
Qed.

Lemma last_out_In t l v : last_out t l = Some v -> In (t, v) l.
Proof.
  induction l as [|[t' v'] r IH]; cbn [last_out]; [discriminate|].
  destruct (N.eqb_spec t' t) as [->|]; intros H; [left; injection H as ->; reflexivity | right; exact (IH H)].
Qed.

Definition has (t : N) (l : list (N * N)) : bool := match last_out t l with Some _ => true | None => false end.

Lemma has_In t l : has t l = true -> exists v, In (t, v) l.
Proof. unfold has. destruct (last_out t l) as [v|] eqn:E; [|discriminate]. intros _. exists v. exact (last_out_In _ _ _ E). Qed.

Lemma In_has t v l : In (t, v) l -> has t l = true.
Proof.
  unfold has. induction l as [|[t' v'] r IH]; cbn [In last_out]; [contradiction|].
  intros [E|H]; [injection E as -> _; rewrite N.eqb_refl; reflexivity|]. destruct (t' =? t); [reflexivity | exact (IH H)].
Qed.

(* `Forall` as a conjunction that computes, so that `repeat split` takes the check of a concrete path apart *)
Fixpoint all (P : N * N -> Prop) (l : list (N * N)) : Prop := match l with [] => True | x :: r => P x /\ all P r end.

Lemma all_In P l x : all P l -> In x l -> P x.
Proof. induction l as [|y r IH]; cbn [all In]; [contradiction|]. intros [Hy Hr] [<-|H]; [exact Hy | exact (IH Hr H)]. Qed.

(* From the events of one path to the record.  Every path of a key-creating function that calls CreateObject ends in its
   clean-up tail `tail d rv l`, entered with `*phKey` = d, the return code rv and the effects l.  So the effects of a path are
   <clean-up or nothing> ++ mid ++ acc, where acc is what was there before the call of CreateObject and mid is what the path
   did in between; `keygen_ok` follows from a check of mid alone. *)
Section Tail.
  Variables (out op h : N) (getobj : N -> N) (pv pl pa pn : N -> Prop) (needv : bool).

  (* what an event of mid may be: never an unregistration, a destruction or a write to the caller's variable; a store of an
     allowed value, CreateObject with the right operation, a transaction call on the new object *)
  Definition ev_ok (ev : N * N) : Prop :=
    let (t, v) := ev in
    (t =? T_HMD) || (t =? T_OBJD) || (t =? out) = false /\
    if t =? CKA_VALUE then pv v else if t =? CKA_LOCAL then pl v else if t =? CKA_ALWAYS_SENSITIVE then pa v
    else if t =? CKA_NEVER_EXTRACTABLE then pn v else if t =? T_CREATE then v = op
    else if (t =? T_TXS) || (t =? T_COMMIT) then v = getobj h else True.

  (* the mid of a path that may answer CKR_OK *)
  Definition complete (mid : list (N * N)) : bool :=
    has T_CREATE mid && has T_TXS mid && has T_COMMIT mid && negb (has T_ABORT mid) && (negb needv || has CKA_VALUE mid) &&
    has CKA_LOCAL mid && has CKA_ALWAYS_SENSITIVE mid && has CKA_NEVER_EXTRACTABLE mid.

  Definition mids : list N := [T_TXS; T_COMMIT; T_ABORT; T_CREATE; CKA_VALUE; CKA_LOCAL; CKA_ALWAYS_SENSITIVE; CKA_NEVER_EXTRACTABLE].
  (* the tag of `*phKey = v` is none of the others; of a concrete tag `eq_refl` proves it (at_tail) *)
  Hypothesis out_fresh : forallb (fun t => negb (t =? out)) ([T_GET; T_HMD; T_OBJD] ++ mids) = true.

  Definition undo (rv d : N) : list (N * N) := if rv =? 0 then [] else if d =? 0 then [] else cleanup out d getobj.
  Variable tail : N -> N -> list (N * N) -> R.
  Hypothesis tail_eq : forall d rv l, tail d rv l = (rv, undo rv d ++ l).

  Ltac tag := cbv [mids app In]; repeat (first [left; reflexivity | right]).

  Lemma fresh t : In t ([T_GET; T_HMD; T_OBJD] ++ mids) -> (t =? out) = false.
  Proof. intros Ht. apply negb_true_iff. exact (proj1 (forallb_forall _ _) out_fresh t Ht). Qed.

  (* what an event outside mid is: one of acc, or of the clean-up - which there is only when the call fails, and then for the
     new handle *)
  Definition edge (rv t v : N) : Prop :=
    if T_HMD =? t then rv <> 0 /\ v = h else if T_OBJD =? t then rv <> 0 /\ v = getobj h else if T_GET =? t then True
    else t = out /\ v = 0.

  Lemma edge_out rv v : edge rv out v <-> v = 0.
  Proof.
    unfold edge. rewrite (fresh T_HMD), (fresh T_OBJD), (fresh T_GET) by tag. split; [intros [_ E]; exact E | auto].
  Qed.

  (* d: the handle CreateObject produced if it was called, CK_INVALID_HANDLE otherwise *)
  Theorem keygen_ok_tail rv d mid acc :
    clean out acc ->
    d = (if has T_CREATE mid then h else 0) ->
    all ev_ok mid ->
    (rv =? 0) && negb (complete mid) = false ->
    keygen_ok out op h getobj pv pl pa pn needv (tail d rv (mid ++ acc)).
  Proof.
    intros Hacc Hd Hmid Hrv. rewrite tail_eq. set (whole := undo rv d ++ mid ++ acc).
    assert (Hin : forall t v, In (t, v) whole -> In (t, v) mid /\ ev_ok (t, v) \/ edge rv t v).
    { intros t v Hi. apply in_app_or in Hi as [Hi|Hi]; [right | apply in_app_or in Hi as [Hi|Hi]; [left | right]].
      - unfold undo in Hi. destruct (N.eqb_spec rv 0) as [|Hr]; [contradiction|]. destruct (N.eqb_spec d 0); [contradiction|].
        assert (d = h) as -> by (destruct (has T_CREATE mid); [exact Hd | contradiction]).
        assert (Hc : In (t, v) [(out, 0); (T_OBJD, getobj h); (T_HMD, h); (T_GET, h)])
          by (unfold cleanup in Hi; destruct (getobj h =? 0); cbn [app In] in *; tauto).
        destruct Hc as [Hc|[Hc|[Hc|[Hc|[]]]]]; injection Hc as <- <-;
          [apply edge_out; reflexivity | exact (conj Hr eq_refl) | exact (conj Hr eq_refl) | exact I].
      - exact (conj Hi (all_In _ _ _ Hmid Hi)).
      - destruct (clean_In _ _ _ _ Hacc Hi) as [[-> ->]| ->]; [apply edge_out; reflexivity | exact I]. }
    (* a store, CreateObject, a transaction call: an event of mid *)
    assert (Hm : forall t v, In t mids -> In (t, v) whole -> In (t, v) mid /\ ev_ok (t, v)).
    { intros t v Ht Hi. destruct (Hin t v Hi) as [H|He]; [exact H | exfalso]. cbv [mids In] in Ht.
      repeat (destruct Ht as [<-|Ht]; [destruct He as [E _]; apply N.eqb_eq in E; rewrite fresh in E by tag; discriminate E|]). exact Ht. }
    (* an unregistration, a destruction: an event of the clean-up, which the guard of ev_ok keeps out of mid *)
    assert (Hu : forall t v, In (t, v) whole -> T_HMD = t \/ T_OBJD = t -> edge rv t v).
    { intros t v Hi Ht. destruct (Hin t v Hi) as [[_ [Hq _]]|He]; [exfalso; destruct Ht as [<-|<-]; discriminate Hq | exact He]. }
    assert (Hhas : forall t, has t mid = true -> exists v, In (t, v) whole /\ ev_ok (t, v)).
    { intros t Ht. destruct (has_In _ _ Ht) as [v Hi]. exists v.
      split; [apply in_or_app; right; apply in_or_app; left; exact Hi | exact (all_In _ _ _ Hmid Hi)]. }
    assert (Hex : forall t, has t mid = true -> exists v, In (t, v) whole)
      by (intros t Ht; destruct (Hhas t Ht) as (v & Hi & _); exists v; exact Hi).
    assert (Hok : rv = 0 -> complete mid = true) by (intros ->; destruct (complete mid); [reflexivity | discriminate Hrv]).
    constructor; cbn [fst snd]; fold whole.
    - intros v Hi. exact (proj2 (proj2 (Hm CKA_VALUE v ltac:(tag) Hi))).
    - refine (conj _ (conj _ (conj _ _))).
      + intros v Hi. exact (proj2 (proj2 (Hm CKA_LOCAL v ltac:(tag) Hi))).
      + intros v Hi. exact (proj2 (proj2 (Hm CKA_ALWAYS_SENSITIVE v ltac:(tag) Hi))).
      + intros v Hi. exact (proj2 (proj2 (Hm CKA_NEVER_EXTRACTABLE v ltac:(tag) Hi))).
      + intros Hr. pose proof (Hok Hr) as Hc. unfold complete in Hc. repeat (apply andb_true_iff in Hc; destruct Hc as [Hc ?]).
        refine (conj _ (conj (Hex _ _) (conj (Hex _ _) (Hex _ _)))); [|assumption..].
        destruct needv; [apply Hex; assumption | exact I].
    - refine (conj _ (conj _ _)).
      + intros Hr Hi Hh. destruct (Hm T_CREATE op ltac:(tag) Hi) as [Hc _]. rewrite (In_has _ _ _ Hc) in Hd. subst d.
        exists (mid ++ acc). unfold whole, undo. rewrite (proj2 (N.eqb_neq _ _) Hr), (proj2 (N.eqb_neq _ _) Hh). reflexivity.
      + (* the last write to the caller's variable, if any: not in mid (the guard), so of value 0 *)
        intros _. destruct (last_out out whole) as [v|] eqn:E; [left; f_equal | right; reflexivity].
        destruct (Hin _ _ (last_out_In _ _ _ E)) as [[_ [Hq _]]|He]; [|exact (proj1 (edge_out rv v) He)].
        rewrite N.eqb_refl, !orb_true_r in Hq. discriminate Hq.
      + intros Hr. pose proof (Hok Hr) as Hc. unfold complete in Hc. repeat (apply andb_true_iff in Hc; destruct Hc as [Hc ?]).
        split; [intros t v Hi; repeat split; intros -> | repeat split].
        * exact (proj1 (Hu _ v Hi (or_introl eq_refl)) Hr).
        * exact (proj1 (Hu _ v Hi (or_intror eq_refl)) Hr).
        * destruct (Hm T_ABORT v ltac:(tag) Hi) as [Ha _]. rewrite (In_has _ _ _ Ha) in *. discriminate.
        * destruct (Hhas T_CREATE) as (v & Hi & _ & <-); [assumption | exact Hi].
        * destruct (Hhas T_TXS) as (v & Hi & _ & <-); [assumption | exact Hi].
        * destruct (Hhas T_COMMIT) as (v & Hi & _ & <-); [assumption | exact Hi].
    - split; [intros x Hi; exact (proj2 (Hu _ x Hi (or_introl eq_refl))) | intros o Hi; exact (proj2 (Hu _ o Hi (or_intror eq_refl)))].
  Qed.
End Tail.

(* a call that fails before it gets to CreateObject *)
Lemma keygen_ok_early out op h getobj pv pl pa pn needv rv acc :
  forallb (fun t => negb (t =? out)) ([T_GET; T_HMD; T_OBJD] ++ mids) = true -> negb (rv =? 0) = true -> clean out acc ->
  keygen_ok out op h getobj pv pl pa pn needv (rv, acc).
Proof.
  (* the tail entered with no handle (d = 0) and nothing done (mid = []) returns (rv, acc) *)
  intros Hf Hr Hc. apply negb_true_iff in Hr.
  pose proof (keygen_ok_tail out op h getobj pv pl pa pn needv Hf (fun d rv l => (rv, undo out getobj rv d ++ l))
                (fun _ _ _ => eq_refl) rv 0 [] acc Hc eq_refl I) as K.
  unfold undo in K. rewrite Hr in K. exact (K eq_refl).
Qed.

(* Walking the paths of a lifted function, goal `P <program term>`.  P11/Wp.v walks functions whose continuations are
   let-bound and chooses at every join; here each continuation is a definition of its own, so a walk only unfolds the one at the
   head and decides the test at the head, until it arrives at a pair or at a call of `stop`; the join is made once, by a lemma
   about `stop`.  Two ways to decide a test.  `by_truth`: by cases on the condition, the choice recorded as an equation (as
   `wp_if` does).  `by_value`: by cases on the first boolean the condition depends on, except that for `x =? 0` it takes x apart
   into 0 and `N.pos p`, everywhere in the goal, so that a return code or flag that is tested again further on, or that the
   statement mentions, computes. *)
Ltac head_of t := lazymatch t with ?f _ => head_of f | _ => t end.
Ltac atom c := lazymatch c with negb ?a => atom a | ?a || _ => atom a | ?a && _ => atom a | _ => c end.
Ltac by_truth c := destruct c eqn:?.
Ltac by_value c := let a := atom c in lazymatch a with ?x =? 0 => destruct x eqn:? | _ => destruct a end.
Ltac walk how stop :=
  repeat (lazymatch goal with
          | |- _ (if ?c then _ else _) => how c
          | |- _ (pair _ _) => fail
          | |- _ ?t => let k := head_of t in lazymatch k with stop => fail | _ => unfold k end
          end;
          cbn [negb andb orb N.eqb]).

(* the events that stand in front of acc in l *)
Ltac front l acc := lazymatch l with acc => constr:(@nil (N * N)) | ?x :: ?r => let m := front r acc in constr:(x :: m) end.
(* A path has arrived at the clean-up tail, a call `k e d rv l` (the pattern below relies on these being the tail's last three
   arguments; translator/gen_kgproofs.py prints <f>_ok only for such tails): what it did goes to keygen_ok_tail.  Its
   premises compute, except `all ev_ok mid`: after `repeat split` that is one `false = false` per event (the guard) and, per
   store, `stored value = value the statement asks for`; `eauto` closes these by reflexivity, by a recorded choice read in
   either direction (`N.pos p = getobj h`), or with the witness at hand (`exists x, v = token_encrypt_out_value e x`). *)
Ltac at_tail tail Htail :=
  lazymatch goal with
  | Hc : clean ?out ?acc |- _ (_ ?d ?rv ?l) =>
      let mid := front l acc in
      apply (keygen_ok_tail out _ _ _ _ _ _ _ _ eq_refl tail Htail rv d mid acc Hc); [reflexivity | | reflexivity]
  end;
  cbv [all ev_ok CKA_VALUE CKA_LOCAL CKA_ALWAYS_SENSITIVE CKA_NEVER_EXTRACTABLE T_CREATE T_TXS T_COMMIT T_HMD T_OBJD N.eqb Pos.eqb orb];
  repeat split; eauto.
