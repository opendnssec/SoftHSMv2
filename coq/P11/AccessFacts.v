(* P11/AccessFacts.v — facts about the REGENERATED access matrix and session-state function
   (gen/Gen_Pure.v: haveRead, haveWrite from access.cpp; Session::getState).  These proofs are re-checked
   against whatever the current sources translate to. *)
From Coq Require Import NArith Lia.
From SoftHSM Require Import Gen_Const Gen_Pure Core.

Local Open Scope N_scope.

Definition is_user_state (st : N) : bool := (st =? CKS_RO_USER_FUNCTIONS) || (st =? CKS_RW_USER_FUNCTIONS).
Definition is_rw_state (st : N) : bool := (st =? CKS_RW_PUBLIC_SESSION) || (st =? CKS_RW_USER_FUNCTIONS) || (st =? CKS_RW_SO_FUNCTIONS).

Lemma access_matrix (st : N) (tok priv : bool) :
  (have_read st tok priv = CKR_OK -> priv = false \/ is_user_state st = true) /\
  (have_write st tok priv = CKR_OK ->
   (priv = false \/ is_user_state st = true) /\ (tok = false \/ is_rw_state st = true)).
Proof.
  unfold have_read, have_write.
  (* 0 .. 4 are the five CKS_* session states: 5 x 2 x 2 table entries, computed; any other value falls through both
     switches of access.cpp to an error *)
  assert (st = 0 \/ st = 1 \/ st = 2 \/ st = 3 \/ st = 4 \/ 4 < st) as [->|[->|[->|[->|[->|H]]]]] by lia.
  1-5: destruct tok, priv; vm_compute; intuition congruence.
  unfold gen_haveRead, gen_haveWrite. rewrite !(proj2 (N.eqb_neq st _)) by lia. split; discriminate.
Qed.

Lemma haveRead_private_needs_user (st : N) (tok : bool) :
  have_read st tok true = CKR_OK -> is_user_state st = true.
Proof. intros H. destruct (proj1 (access_matrix st tok true) H); [discriminate|assumption]. Qed.

Lemma haveWrite_private_needs_user (st : N) (tok : bool) :
  have_write st tok true = CKR_OK -> is_user_state st = true.
Proof. intros H. destruct (proj2 (access_matrix st tok true) H) as [[|] _]; [discriminate|assumption]. Qed.

Lemma haveWrite_token_needs_rw (st : N) (priv : bool) :
  have_write st true priv = CKR_OK -> is_rw_state st = true.
Proof. intros H. destruct (proj2 (access_matrix st true priv) H) as [_ [|]]; [discriminate|assumption]. Qed.

Lemma getState_user (rw so us : bool) :
  is_user_state (gen_Session__getState rw so us) = true <-> (so = false /\ us = true).
Proof. destruct rw, so, us; vm_compute; intuition congruence. Qed.

Lemma getState_so (rw so us : bool) :
  gen_Session__getState rw so us = CKS_RW_SO_FUNCTIONS <-> so = true.
Proof. destruct rw, so, us; vm_compute; intuition congruence. Qed.

Lemma getState_rw (rw so us : bool) :
  is_rw_state (gen_Session__getState rw so us) = true <-> (rw = true \/ so = true).
Proof. destruct rw, so, us; vm_compute; intuition congruence. Qed.

Lemma getState_range (rw so us : bool) :
  gen_Session__getState rw so us <= 4.
Proof. destruct rw, so, us; vm_compute; congruence. Qed.

Lemma sess_state_user (s : state) (x : session) :
  is_user_state (sess_state s x) = true <-> tok_login s (s_tok x) = LUser.
Proof.
  unfold sess_state. rewrite getState_user. destruct (tok_login s (s_tok x)); cbn; intuition congruence.
Qed.

Lemma sess_state_so (s : state) (x : session) :
  sess_state s x = CKS_RW_SO_FUNCTIONS <-> tok_login s (s_tok x) = LSO.
Proof.
  unfold sess_state. rewrite getState_so. destruct (tok_login s (s_tok x)); cbn; intuition congruence.
Qed.

Lemma sess_state_rw (s : state) (x : session) :
  is_rw_state (sess_state s x) = true <-> (s_rw x = true \/ tok_login s (s_tok x) = LSO).
Proof.
  unfold sess_state. rewrite getState_rw. destruct (tok_login s (s_tok x)); cbn; intuition congruence.
Qed.

Lemma is_so_iff l : is_so l = true <-> l = LSO.
Proof. destruct l; cbn; split; congruence. Qed.
