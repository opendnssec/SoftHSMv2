(* P11/Invariants.v — C03: never an R/O session while the SO is logged in, over all histories. *)
From Coq Require Import List NArith Bool.
From SoftHSM Require Import Gen_Const Defs Core AssocFacts StepFacts.
Import ListNotations.
Local Open Scope N_scope.

Lemma upd_token_init s k f : st_init (upd_token s k f) = st_init s.
Proof. rewrite upd_token_eq. reflexivity. Qed.

Lemma restart_sessions s b : st_sessions (restart s b) = [].
Proof. reflexivity. Qed.

Definition inv_so_rw (s : state) : Prop :=
  forall h x, In (h, x) (st_sessions s) -> tok_login s (s_tok x) = LSO -> s_rw x = true.

Lemma inv_so_rw_init : inv_so_rw init_state.
Proof. intros h x []. Qed.

Definition sess_sub (s s' : state) : Prop :=
  forall p, In p (st_sessions s') ->
    exists x, In (fst p, x) (st_sessions s) /\ s_tok (snd p) = s_tok x /\ s_rw (snd p) = s_rw x.

Lemma sess_sub_refl s : sess_sub s s.
Proof. intros [h x] H. exists x. auto. Qed.

Lemma inv_so_rw_mono s s' :
  inv_so_rw s -> keeps (fun x => (s_tok x, s_rw x)) (st_sessions s) (st_sessions s') ->
  (forall k, tok_login s' k = LSO -> tok_login s k = LSO) -> inv_so_rw s'.
Proof.
  intros Hinv Hsub Hlog h x Hin Hso. destruct (Hsub h x Hin) as (x0 & H1 & [= H2 H3]).
  rewrite H3. apply (Hinv h x0 H1). rewrite <- H2. apply Hlog, Hso.
Qed.

Lemma no_new_so s s' j f :
  st_tokens s' = lupd j f (st_tokens s) -> (forall t, t_login (f t) = LSO -> t_login t = LSO) ->
  forall k, tok_login s' k = LSO -> tok_login s k = LSO.
Proof.
  unfold tok_login. intros -> Hf k. rewrite alookup_lupd. destruct (j =? k) eqn:E; [|auto].
  apply N.eqb_eq in E. subst k. destruct (alookup j (st_tokens s)); [apply Hf|auto].
Qed.

Lemma restart_login s b k : tok_login (restart s b) k = LNone.
Proof. unfold tok_login. rewrite restart_lookup. destruct (alookup k (st_tokens s)); reflexivity. Qed.

Create HintDb so_rw.
#[local] Hint Resolve keeps_refl keeps_nil keeps_filter keeps_lupd : so_rw.

Lemma step_inv_so_rw s o : inv_so_rw s -> inv_so_rw (fst (step s o)).
Proof.
  intros Hinv. destruct (step_trans s o) as [T | ->]; [|exact Hinv].
  trans_cases T.
  7: { (* SO login: there is no R/O session on the token *)
    this_is c_token. match goal with H : tok_update _ _ _ _ _ |- _ => destruct H end.
    2-5: (* the user's login and the PIN changes log no SO in *) apply inv_so_rw_mono with s; [exact Hinv|simp_state; eauto with so_rw|]; (eapply no_new_so; [cbn; reflexivity|intros ?; cbn; congruence]).
    intros hh xx Hin Hso. simp_state. destruct (N.eq_dec (s_tok x) (s_tok xx)) as [E|E].
    - match goal with H : existsb _ _ = false |- _ => pose proof (existsb_false_In _ _ _ H Hin) as Hx end.
      cbn in Hx. rewrite E, N.eqb_refl in Hx. apply negb_false_iff in Hx. exact Hx.
    - apply (Hinv hh xx Hin). revert Hso. unfold tok_login. simp_state. rewrite alookup_lupd.
      destruct (N.eqb_spec (s_tok x) (s_tok xx)); [contradiction|auto]. }
  4: { (* the new session is R/W if the SO is logged in *)
    this_is c_open. intros hh xx Hin Hso. simp_state. apply in_app_or in Hin. destruct Hin as [Hin|[[= <- <-]|[]]]; [exact (Hinv hh xx Hin Hso)|].
    cbn in *. change (tok_login s k = LSO) in Hso. rewrite Hso in *. destruct (N.land flags CKF_RW_SESSION =? CKF_RW_SESSION); [reflexivity|discriminate]. }
  3: { this_is c_newtoken. apply inv_so_rw_mono with s; [exact Hinv|simp_state; eauto with so_rw|].
    intros k. unfold tok_login. simp_state. rewrite alookup_app. destruct (alookup k (st_tokens s)); [auto|].
    cbn. destruct (label =? k); discriminate. }
  1: { this_is c_restart. apply inv_so_rw_mono with s; [exact Hinv|simp_state; eauto with so_rw|].
    intros k. rewrite restart_login. discriminate. }
  all: try match goal with H : find_next _ _ _ _ |- _ => destruct H end.
  (* every other transition keeps, removes or only changes the search state of sessions; it leaves the token table
     alone, or changes it under one key by a function that logs no SO in *)
  all: apply inv_so_rw_mono with s; [exact Hinv|unfold regs, aremove; simp_state; eauto with so_rw|];
       first [solve [eauto with so_rw] | eapply no_new_so; [cbn; reflexivity|intros ?; cbn; congruence]].
Qed.

Theorem inv_so_rw_reachable (ops : list op) : inv_so_rw (exec init_state ops).
Proof. apply exec_invariant; [exact step_inv_so_rw|exact inv_so_rw_init]. Qed.
