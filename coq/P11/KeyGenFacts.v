(* P11/KeyGenFacts.v — what the five secret-key generators of SoftHSM.cpp (generateAES, generateDES, generateDES2, generateDES3,
   generateGeneric) and C_UnwrapKey (regenerated whole as gen/Gen_Keys.v) do with the object they create: the clauses of the
   per-function theorems KG_<f>.<f>_ok, stated without the record; and the clean-up tails of all 18 key-creating functions.
   For EVERY environment, i.e. whatever the crypto backend, the object store and the handle manager answer.
   (C06, C08, C09, C11, C13) *)
From Coq Require Import List NArith.
From SoftHSM Require Import Gen_Const Gen_Keys KeyGenSpec KG_index KG_tails.
Import ListNotations.
Local Open Scope N_scope.

Definition OUT_phKey : N := 18446744073709551517.        (* 2^64-96-3, the tag of `*phKey = v`: phKey is parameter 3 of the generators *)
Definition OBJECT_OP_GENERATE : N := 4.

(* C06: the key value that is stored is the output of Token::encrypt exactly when the object is private *)
Theorem generated_value_encrypted_iff_private :
  (forall (e : generateAES.env) v, In (CKA_VALUE, v) (snd (generateAES.app e)) ->
     v = if generateAES.isPrivate e =? 0 then generateAES.key_getKeyBits e else generateAES.token_encrypt_out_value e (generateAES.key_getKeyBits e)) /\
  (forall (e : generateDES.env) v, In (CKA_VALUE, v) (snd (generateDES.app e)) ->
     v = if generateDES.isPrivate e =? 0 then generateDES.key_getKeyBits e else generateDES.token_encrypt_out_value e (generateDES.key_getKeyBits e)) /\
  (forall (e : generateDES2.env) v, In (CKA_VALUE, v) (snd (generateDES2.app e)) ->
     v = if generateDES2.isPrivate e =? 0 then generateDES2.key_getKeyBits e else generateDES2.token_encrypt_out_value e (generateDES2.key_getKeyBits e)) /\
  (forall (e : generateDES3.env) v, In (CKA_VALUE, v) (snd (generateDES3.app e)) ->
     v = if generateDES3.isPrivate e =? 0 then generateDES3.key_getKeyBits e else generateDES3.token_encrypt_out_value e (generateDES3.key_getKeyBits e)) /\
  (forall (e : generateGeneric.env) v, In (CKA_VALUE, v) (snd (generateGeneric.app e)) ->
     v = if generateGeneric.isPrivate e =? 0 then generateGeneric.symKey_getKeyBits e else generateGeneric.token_encrypt_out_value e (generateGeneric.symKey_getKeyBits e)).
Proof.
  repeat split; intros e;
    [ exact (kg_value (generateAES_ok e)) | exact (kg_value (generateDES_ok e)) | exact (kg_value (generateDES2_ok e))
    | exact (kg_value (generateDES3_ok e)) | exact (kg_value (generateGeneric_ok e)) ].
Qed.

(* C08: CKA_LOCAL is true, CKA_ALWAYS_SENSITIVE is the new object's CKA_SENSITIVE, CKA_NEVER_EXTRACTABLE the negation of its
   CKA_EXTRACTABLE - whenever they are written, and a successful call has written all three and the value *)
Theorem generated_history_attributes :
  (forall (e : generateAES.env),
     (forall v, In (CKA_LOCAL, v) (snd (generateAES.app e)) -> v = 1) /\
     (forall v, In (CKA_ALWAYS_SENSITIVE, v) (snd (generateAES.app e)) -> v = b2n (negb (generateAES.osobject_getBooleanValue e CKA_SENSITIVE false =? 0))) /\
     (forall v, In (CKA_NEVER_EXTRACTABLE, v) (snd (generateAES.app e)) -> v = b2n (generateAES.osobject_getBooleanValue e CKA_EXTRACTABLE false =? 0)) /\
     (fst (generateAES.app e) = 0 -> (exists v, In (CKA_VALUE, v) (snd (generateAES.app e))) /\ (exists v, In (CKA_LOCAL, v) (snd (generateAES.app e))) /\
                             (exists v, In (CKA_ALWAYS_SENSITIVE, v) (snd (generateAES.app e))) /\ (exists v, In (CKA_NEVER_EXTRACTABLE, v) (snd (generateAES.app e))))) /\
  (forall (e : generateDES.env),
     (forall v, In (CKA_LOCAL, v) (snd (generateDES.app e)) -> v = 1) /\
     (forall v, In (CKA_ALWAYS_SENSITIVE, v) (snd (generateDES.app e)) -> v = b2n (negb (generateDES.osobject_getBooleanValue e CKA_SENSITIVE false =? 0))) /\
     (forall v, In (CKA_NEVER_EXTRACTABLE, v) (snd (generateDES.app e)) -> v = b2n (generateDES.osobject_getBooleanValue e CKA_EXTRACTABLE false =? 0)) /\
     (fst (generateDES.app e) = 0 -> (exists v, In (CKA_VALUE, v) (snd (generateDES.app e))) /\ (exists v, In (CKA_LOCAL, v) (snd (generateDES.app e))) /\
                             (exists v, In (CKA_ALWAYS_SENSITIVE, v) (snd (generateDES.app e))) /\ (exists v, In (CKA_NEVER_EXTRACTABLE, v) (snd (generateDES.app e))))) /\
  (forall (e : generateDES2.env),
     (forall v, In (CKA_LOCAL, v) (snd (generateDES2.app e)) -> v = 1) /\
     (forall v, In (CKA_ALWAYS_SENSITIVE, v) (snd (generateDES2.app e)) -> v = b2n (negb (generateDES2.osobject_getBooleanValue e CKA_SENSITIVE false =? 0))) /\
     (forall v, In (CKA_NEVER_EXTRACTABLE, v) (snd (generateDES2.app e)) -> v = b2n (generateDES2.osobject_getBooleanValue e CKA_EXTRACTABLE false =? 0)) /\
     (fst (generateDES2.app e) = 0 -> (exists v, In (CKA_VALUE, v) (snd (generateDES2.app e))) /\ (exists v, In (CKA_LOCAL, v) (snd (generateDES2.app e))) /\
                             (exists v, In (CKA_ALWAYS_SENSITIVE, v) (snd (generateDES2.app e))) /\ (exists v, In (CKA_NEVER_EXTRACTABLE, v) (snd (generateDES2.app e))))) /\
  (forall (e : generateDES3.env),
     (forall v, In (CKA_LOCAL, v) (snd (generateDES3.app e)) -> v = 1) /\
     (forall v, In (CKA_ALWAYS_SENSITIVE, v) (snd (generateDES3.app e)) -> v = b2n (negb (generateDES3.osobject_getBooleanValue e CKA_SENSITIVE false =? 0))) /\
     (forall v, In (CKA_NEVER_EXTRACTABLE, v) (snd (generateDES3.app e)) -> v = b2n (generateDES3.osobject_getBooleanValue e CKA_EXTRACTABLE false =? 0)) /\
     (fst (generateDES3.app e) = 0 -> (exists v, In (CKA_VALUE, v) (snd (generateDES3.app e))) /\ (exists v, In (CKA_LOCAL, v) (snd (generateDES3.app e))) /\
                             (exists v, In (CKA_ALWAYS_SENSITIVE, v) (snd (generateDES3.app e))) /\ (exists v, In (CKA_NEVER_EXTRACTABLE, v) (snd (generateDES3.app e))))) /\
  (forall (e : generateGeneric.env),
     (forall v, In (CKA_LOCAL, v) (snd (generateGeneric.app e)) -> v = 1) /\
     (forall v, In (CKA_ALWAYS_SENSITIVE, v) (snd (generateGeneric.app e)) -> v = b2n (negb (generateGeneric.osobject_getBooleanValue e CKA_SENSITIVE false =? 0))) /\
     (forall v, In (CKA_NEVER_EXTRACTABLE, v) (snd (generateGeneric.app e)) -> v = b2n (generateGeneric.osobject_getBooleanValue e CKA_EXTRACTABLE false =? 0)) /\
     (fst (generateGeneric.app e) = 0 -> (exists v, In (CKA_VALUE, v) (snd (generateGeneric.app e))) /\ (exists v, In (CKA_LOCAL, v) (snd (generateGeneric.app e))) /\
                             (exists v, In (CKA_ALWAYS_SENSITIVE, v) (snd (generateGeneric.app e))) /\ (exists v, In (CKA_NEVER_EXTRACTABLE, v) (snd (generateGeneric.app e))))).
Proof.
  repeat match goal with |- _ /\ _ => split end; intros e;
    [ exact (kg_history (generateAES_ok e)) | exact (kg_history (generateDES_ok e)) | exact (kg_history (generateDES2_ok e))
    | exact (kg_history (generateDES3_ok e)) | exact (kg_history (generateGeneric_ok e)) ].
Qed.

(* C09: a call that fails after CreateObject looks the object up, unregisters its handle, destroys it and hands the caller
   CK_INVALID_HANDLE - in this order, as the last thing it does; a call that succeeds destroys and aborts nothing and has
   committed the transaction on the object it created *)
Theorem generated_failure_undoes_success_commits :
  (forall (e : generateAES.env), let h := generateAES.CreateObject_sets_phKey e in let g := generateAES.handleManager_getObject e in
     (fst (generateAES.app e) <> 0 -> In (T_CREATE, OBJECT_OP_GENERATE) (snd (generateAES.app e)) -> h <> 0 -> exists pre, snd (generateAES.app e) = cleanup OUT_phKey h g ++ pre) /\
     (fst (generateAES.app e) <> 0 -> last_out OUT_phKey (snd (generateAES.app e)) = Some 0 \/ last_out OUT_phKey (snd (generateAES.app e)) = None) /\
     (fst (generateAES.app e) = 0 -> (forall t v, In (t, v) (snd (generateAES.app e)) -> t <> T_HMD /\ t <> T_OBJD /\ t <> T_ABORT) /\
        In (T_CREATE, OBJECT_OP_GENERATE) (snd (generateAES.app e)) /\ In (T_TXS, g h) (snd (generateAES.app e)) /\ In (T_COMMIT, g h) (snd (generateAES.app e)))) /\
  (forall (e : generateDES.env), let h := generateDES.CreateObject_sets_phKey e in let g := generateDES.handleManager_getObject e in
     (fst (generateDES.app e) <> 0 -> In (T_CREATE, OBJECT_OP_GENERATE) (snd (generateDES.app e)) -> h <> 0 -> exists pre, snd (generateDES.app e) = cleanup OUT_phKey h g ++ pre) /\
     (fst (generateDES.app e) <> 0 -> last_out OUT_phKey (snd (generateDES.app e)) = Some 0 \/ last_out OUT_phKey (snd (generateDES.app e)) = None) /\
     (fst (generateDES.app e) = 0 -> (forall t v, In (t, v) (snd (generateDES.app e)) -> t <> T_HMD /\ t <> T_OBJD /\ t <> T_ABORT) /\
        In (T_CREATE, OBJECT_OP_GENERATE) (snd (generateDES.app e)) /\ In (T_TXS, g h) (snd (generateDES.app e)) /\ In (T_COMMIT, g h) (snd (generateDES.app e)))) /\
  (forall (e : generateDES2.env), let h := generateDES2.CreateObject_sets_phKey e in let g := generateDES2.handleManager_getObject e in
     (fst (generateDES2.app e) <> 0 -> In (T_CREATE, OBJECT_OP_GENERATE) (snd (generateDES2.app e)) -> h <> 0 -> exists pre, snd (generateDES2.app e) = cleanup OUT_phKey h g ++ pre) /\
     (fst (generateDES2.app e) <> 0 -> last_out OUT_phKey (snd (generateDES2.app e)) = Some 0 \/ last_out OUT_phKey (snd (generateDES2.app e)) = None) /\
     (fst (generateDES2.app e) = 0 -> (forall t v, In (t, v) (snd (generateDES2.app e)) -> t <> T_HMD /\ t <> T_OBJD /\ t <> T_ABORT) /\
        In (T_CREATE, OBJECT_OP_GENERATE) (snd (generateDES2.app e)) /\ In (T_TXS, g h) (snd (generateDES2.app e)) /\ In (T_COMMIT, g h) (snd (generateDES2.app e)))) /\
  (forall (e : generateDES3.env), let h := generateDES3.CreateObject_sets_phKey e in let g := generateDES3.handleManager_getObject e in
     (fst (generateDES3.app e) <> 0 -> In (T_CREATE, OBJECT_OP_GENERATE) (snd (generateDES3.app e)) -> h <> 0 -> exists pre, snd (generateDES3.app e) = cleanup OUT_phKey h g ++ pre) /\
     (fst (generateDES3.app e) <> 0 -> last_out OUT_phKey (snd (generateDES3.app e)) = Some 0 \/ last_out OUT_phKey (snd (generateDES3.app e)) = None) /\
     (fst (generateDES3.app e) = 0 -> (forall t v, In (t, v) (snd (generateDES3.app e)) -> t <> T_HMD /\ t <> T_OBJD /\ t <> T_ABORT) /\
        In (T_CREATE, OBJECT_OP_GENERATE) (snd (generateDES3.app e)) /\ In (T_TXS, g h) (snd (generateDES3.app e)) /\ In (T_COMMIT, g h) (snd (generateDES3.app e)))) /\
  (forall (e : generateGeneric.env), let h := generateGeneric.CreateObject_sets_phKey e in let g := generateGeneric.handleManager_getObject e in
     (fst (generateGeneric.app e) <> 0 -> In (T_CREATE, OBJECT_OP_GENERATE) (snd (generateGeneric.app e)) -> h <> 0 -> exists pre, snd (generateGeneric.app e) = cleanup OUT_phKey h g ++ pre) /\
     (fst (generateGeneric.app e) <> 0 -> last_out OUT_phKey (snd (generateGeneric.app e)) = Some 0 \/ last_out OUT_phKey (snd (generateGeneric.app e)) = None) /\
     (fst (generateGeneric.app e) = 0 -> (forall t v, In (t, v) (snd (generateGeneric.app e)) -> t <> T_HMD /\ t <> T_OBJD /\ t <> T_ABORT) /\
        In (T_CREATE, OBJECT_OP_GENERATE) (snd (generateGeneric.app e)) /\ In (T_TXS, g h) (snd (generateGeneric.app e)) /\ In (T_COMMIT, g h) (snd (generateGeneric.app e)))).
Proof.
  repeat match goal with |- _ /\ _ => split end; intros e;
    [ exact (kg_undo (generateAES_ok e)) | exact (kg_undo (generateDES_ok e)) | exact (kg_undo (generateDES2_ok e))
    | exact (kg_undo (generateDES3_ok e)) | exact (kg_undo (generateGeneric_ok e)) ].
Qed.

(* C11: the only handle such a call ever unregisters is the one CreateObject gave it, the only object it ever destroys the one
   registered under that handle - never what the caller's variable held on entry *)
Theorem generated_destroys_only_its_own :
  (forall (e : generateAES.env),
     (forall x, In (T_HMD, x) (snd (generateAES.app e)) -> x = generateAES.CreateObject_sets_phKey e) /\
     (forall o, In (T_OBJD, o) (snd (generateAES.app e)) -> o = generateAES.handleManager_getObject e (generateAES.CreateObject_sets_phKey e))) /\
  (forall (e : generateDES.env),
     (forall x, In (T_HMD, x) (snd (generateDES.app e)) -> x = generateDES.CreateObject_sets_phKey e) /\
     (forall o, In (T_OBJD, o) (snd (generateDES.app e)) -> o = generateDES.handleManager_getObject e (generateDES.CreateObject_sets_phKey e))) /\
  (forall (e : generateDES2.env),
     (forall x, In (T_HMD, x) (snd (generateDES2.app e)) -> x = generateDES2.CreateObject_sets_phKey e) /\
     (forall o, In (T_OBJD, o) (snd (generateDES2.app e)) -> o = generateDES2.handleManager_getObject e (generateDES2.CreateObject_sets_phKey e))) /\
  (forall (e : generateDES3.env),
     (forall x, In (T_HMD, x) (snd (generateDES3.app e)) -> x = generateDES3.CreateObject_sets_phKey e) /\
     (forall o, In (T_OBJD, o) (snd (generateDES3.app e)) -> o = generateDES3.handleManager_getObject e (generateDES3.CreateObject_sets_phKey e))) /\
  (forall (e : generateGeneric.env),
     (forall x, In (T_HMD, x) (snd (generateGeneric.app e)) -> x = generateGeneric.CreateObject_sets_phKey e) /\
     (forall o, In (T_OBJD, o) (snd (generateGeneric.app e)) -> o = generateGeneric.handleManager_getObject e (generateGeneric.CreateObject_sets_phKey e))).
Proof.
  repeat match goal with |- _ /\ _ => split end; intros e;
    [ exact (kg_own (generateAES_ok e)) | exact (kg_own (generateDES_ok e)) | exact (kg_own (generateDES2_ok e))
    | exact (kg_own (generateDES3_ok e)) | exact (kg_own (generateGeneric_ok e)) ].
Qed.

Definition OUT_hKey : N := 18446744073709551513.         (* 2^64-96-7, the tag of `*hKey = v`: hKey is parameter 7 of C_UnwrapKey *)
Definition OBJECT_OP_UNWRAP : N := 6.

(* C06 / C13: the unwrapped secret key's value is stored as the output of Token::encrypt whenever the new object is private;
   C08 / C13: an unwrapped key is not CKA_LOCAL, was not always sensitive, not never extractable *)
Theorem unwrapped_key_attributes (e : C_UnwrapKey.env) :
  (forall v, In (CKA_VALUE, v) (snd (C_UnwrapKey.app e)) -> C_UnwrapKey.extractObjectInformation_gives_isPrivate e <> 0 -> exists x, v = C_UnwrapKey.token_encrypt_out_value e x) /\
  (forall v, In (CKA_LOCAL, v) (snd (C_UnwrapKey.app e)) -> v = 0) /\
  (forall v, In (CKA_ALWAYS_SENSITIVE, v) (snd (C_UnwrapKey.app e)) -> v = 0) /\
  (forall v, In (CKA_NEVER_EXTRACTABLE, v) (snd (C_UnwrapKey.app e)) -> v = 0) /\
  (fst (C_UnwrapKey.app e) = 0 -> (C_UnwrapKey.extractObjectInformation_gives_objClass e = CKO_SECRET_KEY -> exists v, In (CKA_VALUE, v) (snd (C_UnwrapKey.app e))) /\
     (exists v, In (CKA_LOCAL, v) (snd (C_UnwrapKey.app e))) /\ (exists v, In (CKA_ALWAYS_SENSITIVE, v) (snd (C_UnwrapKey.app e))) /\
     (exists v, In (CKA_NEVER_EXTRACTABLE, v) (snd (C_UnwrapKey.app e)))).
Proof.
  destruct (kg_history (C_UnwrapKey_ok e)) as (Hl & Ha & Hn & Hs).
  refine (conj _ (conj Hl (conj Ha (conj Hn (fun Hr => conj _ (proj2 (Hs Hr))))))).
  - intros v Hin Hp. pose proof (kg_value (C_UnwrapKey_ok e) v Hin) as Hv. cbv beta in Hv.
    rewrite (proj2 (N.eqb_neq _ _) Hp) in Hv. exact Hv.
  - intros Hc. pose proof (proj1 (Hs Hr)) as Hv. rewrite (proj2 (N.eqb_eq _ 4) Hc) in Hv. exact Hv.
Qed.

(* C09 / C11: failure after CreateObject undoes exactly the object it created, success commits and destroys nothing *)
Theorem unwrap_failure_undoes_success_commits (e : C_UnwrapKey.env) :
  let h := C_UnwrapKey.CreateObject_sets_hKey e in let g := C_UnwrapKey.handleManager_getObject e in
  (fst (C_UnwrapKey.app e) <> 0 -> In (T_CREATE, OBJECT_OP_UNWRAP) (snd (C_UnwrapKey.app e)) -> h <> 0 -> exists pre, snd (C_UnwrapKey.app e) = cleanup OUT_hKey h g ++ pre) /\
  (fst (C_UnwrapKey.app e) <> 0 -> last_out OUT_hKey (snd (C_UnwrapKey.app e)) = Some 0 \/ last_out OUT_hKey (snd (C_UnwrapKey.app e)) = None) /\
  (fst (C_UnwrapKey.app e) = 0 -> (forall t v, In (t, v) (snd (C_UnwrapKey.app e)) -> t <> T_HMD /\ t <> T_OBJD /\ t <> T_ABORT) /\
     In (T_CREATE, OBJECT_OP_UNWRAP) (snd (C_UnwrapKey.app e)) /\ In (T_TXS, g h) (snd (C_UnwrapKey.app e)) /\ In (T_COMMIT, g h) (snd (C_UnwrapKey.app e))) /\
  (forall x, In (T_HMD, x) (snd (C_UnwrapKey.app e)) -> x = h) /\
  (forall o, In (T_OBJD, o) (snd (C_UnwrapKey.app e)) -> o = g h).
Proof.
  destruct (kg_undo (C_UnwrapKey_ok e)) as (Hf & Hh & Hs).
  exact (conj Hf (conj Hh (conj Hs (kg_own (C_UnwrapKey_ok e))))).
Qed.

(* PARTIAL: the clean-up tails of all 18 key-creating functions, each in isolation.
   `<f>_tail e d rv acc r` (generated, gen/KG_tails.v) says that r is what the continuation of <f> that begins with
   `if (rv != CKR_OK)` and unregisters a handle returns when entered with `*phKey` = d, the return code rv and the effects acc.
   For every environment that continuation returns rv unchanged and, when rv is not CKR_OK, for each handle variable that is
   not CK_INVALID_HANDLE: look-up, unregistration, destruction of the object found, CK_INVALID_HANDLE to the caller - the
   private key's handle first, then the public key's, for the key-pair generators.  What is missing for the full statement
   (proved above for six functions): that every failing path after CreateObject reaches this continuation with the handle
   CreateObject produced - for the key-pair generators and the derive functions that is not proved. *)
Theorem cleanup_tails_partial :
  (forall (e : generateAES.env) (drf_phKey : N) (rv : N) (acc : list (N * N)) (r : R), generateAES_tail e drf_phKey rv acc r ->
     r = (rv, (if rv =? 0 then [] else (if drf_phKey =? 0 then [] else cleanup 18446744073709551517 drf_phKey (generateAES.handleManager_getObject e))) ++ acc)) /\
  (forall (e : generateDES.env) (drf_phKey : N) (rv : N) (acc : list (N * N)) (r : R), generateDES_tail e drf_phKey rv acc r ->
     r = (rv, (if rv =? 0 then [] else (if drf_phKey =? 0 then [] else cleanup 18446744073709551517 drf_phKey (generateDES.handleManager_getObject e))) ++ acc)) /\
  (forall (e : generateDES2.env) (drf_phKey : N) (rv : N) (acc : list (N * N)) (r : R), generateDES2_tail e drf_phKey rv acc r ->
     r = (rv, (if rv =? 0 then [] else (if drf_phKey =? 0 then [] else cleanup 18446744073709551517 drf_phKey (generateDES2.handleManager_getObject e))) ++ acc)) /\
  (forall (e : generateDES3.env) (drf_phKey : N) (rv : N) (acc : list (N * N)) (r : R), generateDES3_tail e drf_phKey rv acc r ->
     r = (rv, (if rv =? 0 then [] else (if drf_phKey =? 0 then [] else cleanup 18446744073709551517 drf_phKey (generateDES3.handleManager_getObject e))) ++ acc)) /\
  (forall (e : generateGeneric.env) (drf_phKey : N) (rv : N) (acc : list (N * N)) (r : R), generateGeneric_tail e drf_phKey rv acc r ->
     r = (rv, (if rv =? 0 then [] else (if drf_phKey =? 0 then [] else cleanup 18446744073709551517 drf_phKey (generateGeneric.handleManager_getObject e))) ++ acc)) /\
  (forall (e : generateRSA.env) (drf_phPublicKey : N) (drf_phPrivateKey : N) (rv : N) (acc : list (N * N)) (r : R), generateRSA_tail e drf_phPublicKey drf_phPrivateKey rv acc r ->
     r = (rv, (if rv =? 0 then [] else (if drf_phPublicKey =? 0 then [] else cleanup 18446744073709551515 drf_phPublicKey (generateRSA.handleManager_getObject e)) ++ (if drf_phPrivateKey =? 0 then [] else cleanup 18446744073709551514 drf_phPrivateKey (generateRSA.handleManager_getObject e))) ++ acc)) /\
  (forall (e : generateDSA.env) (drf_phPublicKey : N) (drf_phPrivateKey : N) (rv : N) (acc : list (N * N)) (r : R), generateDSA_tail e drf_phPublicKey drf_phPrivateKey rv acc r ->
     r = (rv, (if rv =? 0 then [] else (if drf_phPublicKey =? 0 then [] else cleanup 18446744073709551515 drf_phPublicKey (generateDSA.handleManager_getObject e)) ++ (if drf_phPrivateKey =? 0 then [] else cleanup 18446744073709551514 drf_phPrivateKey (generateDSA.handleManager_getObject e))) ++ acc)) /\
  (forall (e : generateDSAParameters.env) (drf_phKey : N) (rv : N) (acc : list (N * N)) (r : R), generateDSAParameters_tail e drf_phKey rv acc r ->
     r = (rv, (if rv =? 0 then [] else (if drf_phKey =? 0 then [] else cleanup 18446744073709551517 drf_phKey (generateDSAParameters.handleManager_getObject e))) ++ acc)) /\
  (forall (e : generateEC.env) (drf_phPublicKey : N) (drf_phPrivateKey : N) (rv : N) (acc : list (N * N)) (r : R), generateEC_tail e drf_phPublicKey drf_phPrivateKey rv acc r ->
     r = (rv, (if rv =? 0 then [] else (if drf_phPublicKey =? 0 then [] else cleanup 18446744073709551515 drf_phPublicKey (generateEC.handleManager_getObject e)) ++ (if drf_phPrivateKey =? 0 then [] else cleanup 18446744073709551514 drf_phPrivateKey (generateEC.handleManager_getObject e))) ++ acc)) /\
  (forall (e : generateED.env) (drf_phPublicKey : N) (drf_phPrivateKey : N) (rv : N) (acc : list (N * N)) (r : R), generateED_tail e drf_phPublicKey drf_phPrivateKey rv acc r ->
     r = (rv, (if rv =? 0 then [] else (if drf_phPublicKey =? 0 then [] else cleanup 18446744073709551515 drf_phPublicKey (generateED.handleManager_getObject e)) ++ (if drf_phPrivateKey =? 0 then [] else cleanup 18446744073709551514 drf_phPrivateKey (generateED.handleManager_getObject e))) ++ acc)) /\
  (forall (e : generateDH.env) (drf_phPublicKey : N) (drf_phPrivateKey : N) (rv : N) (acc : list (N * N)) (r : R), generateDH_tail e drf_phPublicKey drf_phPrivateKey rv acc r ->
     r = (rv, (if rv =? 0 then [] else (if drf_phPublicKey =? 0 then [] else cleanup 18446744073709551515 drf_phPublicKey (generateDH.handleManager_getObject e)) ++ (if drf_phPrivateKey =? 0 then [] else cleanup 18446744073709551514 drf_phPrivateKey (generateDH.handleManager_getObject e))) ++ acc)) /\
  (forall (e : generateDHParameters.env) (drf_phKey : N) (rv : N) (acc : list (N * N)) (r : R), generateDHParameters_tail e drf_phKey rv acc r ->
     r = (rv, (if rv =? 0 then [] else (if drf_phKey =? 0 then [] else cleanup 18446744073709551517 drf_phKey (generateDHParameters.handleManager_getObject e))) ++ acc)) /\
  (forall (e : generateGOST.env) (drf_phPublicKey : N) (drf_phPrivateKey : N) (rv : N) (acc : list (N * N)) (r : R), generateGOST_tail e drf_phPublicKey drf_phPrivateKey rv acc r ->
     r = (rv, (if rv =? 0 then [] else (if drf_phPublicKey =? 0 then [] else cleanup 18446744073709551515 drf_phPublicKey (generateGOST.handleManager_getObject e)) ++ (if drf_phPrivateKey =? 0 then [] else cleanup 18446744073709551514 drf_phPrivateKey (generateGOST.handleManager_getObject e))) ++ acc)) /\
  (forall (e : deriveDH.env) (drf_phKey : N) (rv : N) (acc : list (N * N)) (r : R), deriveDH_tail e drf_phKey rv acc r ->
     r = (rv, (if rv =? 0 then [] else (if drf_phKey =? 0 then [] else cleanup 18446744073709551515 drf_phKey (deriveDH.handleManager_getObject e))) ++ acc)) /\
  (forall (e : deriveECDH.env) (drf_phKey : N) (rv : N) (acc : list (N * N)) (r : R), deriveECDH_tail e drf_phKey rv acc r ->
     r = (rv, (if rv =? 0 then [] else (if drf_phKey =? 0 then [] else cleanup 18446744073709551515 drf_phKey (deriveECDH.handleManager_getObject e))) ++ acc)) /\
  (forall (e : deriveEDDSA.env) (drf_phKey : N) (rv : N) (acc : list (N * N)) (r : R), deriveEDDSA_tail e drf_phKey rv acc r ->
     r = (rv, (if rv =? 0 then [] else (if drf_phKey =? 0 then [] else cleanup 18446744073709551515 drf_phKey (deriveEDDSA.handleManager_getObject e))) ++ acc)) /\
  (forall (e : deriveSymmetric.env) (drf_phKey : N) (rv : N) (acc : list (N * N)) (r : R), deriveSymmetric_tail e drf_phKey rv acc r ->
     r = (rv, (if rv =? 0 then [] else (if drf_phKey =? 0 then [] else cleanup 18446744073709551515 drf_phKey (deriveSymmetric.handleManager_getObject e))) ++ acc)) /\
  (forall (e : C_UnwrapKey.env) (drf_hKey : N) (rv : N) (acc : list (N * N)) (r : R), C_UnwrapKey_tail e drf_hKey rv acc r ->
     r = (rv, (if rv =? 0 then [] else (if drf_hKey =? 0 then [] else cleanup 18446744073709551513 drf_hKey (C_UnwrapKey.handleManager_getObject e))) ++ acc)).
Proof.
  repeat match goal with |- _ /\ _ => split end.
  - exact generateAES_cleanup_tail.
  - exact generateDES_cleanup_tail.
  - exact generateDES2_cleanup_tail.
  - exact generateDES3_cleanup_tail.
  - exact generateGeneric_cleanup_tail.
  - exact generateRSA_cleanup_tail.
  - exact generateDSA_cleanup_tail.
  - exact generateDSAParameters_cleanup_tail.
  - exact generateEC_cleanup_tail.
  - exact generateED_cleanup_tail.
  - exact generateDH_cleanup_tail.
  - exact generateDHParameters_cleanup_tail.
  - exact generateGOST_cleanup_tail.
  - exact deriveDH_cleanup_tail.
  - exact deriveECDH_cleanup_tail.
  - exact deriveEDDSA_cleanup_tail.
  - exact deriveSymmetric_cleanup_tail.
  - exact C_UnwrapKey_cleanup_tail.
Qed.

(* the premises are met somewhere: an environment in which generateAES gets as far as creating the object (handle 7, object 9)
   and then cannot start the transaction: it fails with CKR_FUNCTION_FAILED and ends with the clean-up of exactly that object *)
Definition aes_failing_env : generateAES.env :=
  fold_right (fun f e => f e) generateAES.default
    [ generateAES.set_handleManager_getSession (fun _ => 1); generateAES.set_session_getToken 1; generateAES.set_hv1_keyLen 16;
      generateAES.set_i_getSymmetricAlgorithm (fun _ => 1); generateAES.set_i_getRNG 1; generateAES.set_aes_generateKey (fun _ _ => 1);
      generateAES.set_CreateObject_sets_phKey 7; generateAES.set_handleManager_getObject (fun _ => 9); generateAES.set_osobject_isValid 1 ].
Example generateAES_failing_run :
  fst (generateAES.app aes_failing_env) = 6 /\ In (T_CREATE, OBJECT_OP_GENERATE) (snd (generateAES.app aes_failing_env)) /\
  exists pre, snd (generateAES.app aes_failing_env) = cleanup OUT_phKey 7 (fun _ => 9) ++ pre.
Proof. vm_compute. split; [reflexivity | split; [ repeat (first [ left; reflexivity | right ]) | eexists; reflexivity ] ]. Qed.
