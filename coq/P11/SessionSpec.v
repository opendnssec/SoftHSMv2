(* P11/SessionSpec.v — specification lemmas of the session / login machine of the core model (C03, C04). *)
From Coq Require Import List NArith Bool.
From SoftHSM Require Import Gen_Const Defs Core AssocFacts AccessFacts StepFacts.
Import ListNotations.
Local Open Scope N_scope.

Inductive lclass := CPublic | CUser | CSO.
Definition login_class (st : N) : lclass :=
  if st =? CKS_RW_SO_FUNCTIONS then CSO else if is_user_state st then CUser else CPublic.
Definition class_of_login (l : login) : lclass := match l with LNone => CPublic | LUser => CUser | LSO => CSO end.

(* the state C_GetSessionInfo reports has exactly the token's login component *)
Lemma reported_state_login (s : state) (x : session) :
  login_class (sess_state s x) = class_of_login (tok_login s (s_tok x)).
Proof.
  unfold sess_state. destruct (tok_login s (s_tok x)), (s_rw x); vm_compute; reflexivity.
Qed.

Lemma same_login_state (s : state) (x y : session) :
  s_tok x = s_tok y -> login_class (sess_state s x) = login_class (sess_state s y).
Proof. intros E. rewrite !reported_state_login, E. reflexivity. Qed.

Lemma reported_state_rw (s : state) (x : session) :
  is_rw_state (sess_state s x) = s_rw x || is_so (tok_login s (s_tok x)).
Proof. unfold sess_state. destruct (tok_login s (s_tok x)), (s_rw x); vm_compute; reflexivity. Qed.

Definition has_ro_session (s : state) (k : N) : bool :=
  existsb (fun q => (s_tok (snd q) =? k) && negb (s_rw (snd q))) (st_sessions s).

Lemma login_rule (s : state) (h ut : N) (p : option bytes) (x : session) :
  get_session s h = Some x -> snd (step s (OLogin h ut p)) = RRv CKR_OK ->
  exists t f, alookup (s_tok x) (st_tokens s) = Some t /\ tok_update s x t (OLogin h ut p) f /\
              fst (step s (OLogin h ut p)) = set_tokens s (lupd (s_tok x) f (st_tokens s)).
Proof.
  intros Hx Hok. pose proof (step_ok s (OLogin h ut p)) as T. rewrite Hok in T. specialize (T eq_refl eq_refl).
  trans_inv T. cbn [sess_of] in *. replace x with x0 by congruence. eauto.
Qed.

(* C04: C_Login succeeds iff the PKCS#11 preconditions hold and the PIN is the current one *)
Lemma login_ok_iff (s : state) (h ut : N) (p : bytes) (x : session) (t : token) :
  st_init s = true -> get_session s h = Some x -> alookup (s_tok x) (st_tokens s) = Some t ->
  (snd (step s (OLogin h ut (Some p))) = RRv CKR_OK <->
   (ut = CKU_SO /\ has_ro_session s (s_tok x) = false /\ t_login t = LNone /\ pin_ok (t_sopin t) p = true) \/
   (ut = CKU_USER /\ t_login t = LNone /\ exists up, t_userpin t = Some up /\ pin_ok up p = true)).
Proof.
  intros Hi Hs Ht. split.
  - intros Hok. destruct (login_rule s h ut (Some p) x Hs Hok) as (t' & f & Ht' & U & _).
    rewrite Ht in Ht'. injection Ht' as <-. inversion U; subst; [left|right]; eauto.
  - intros H. assert (exists f, tok_update s x t (OLogin h ut (Some p)) f) as [f U].
    { destruct H as [(-> & Hro & Hl & Hp)|(-> & Hl & up & Hup & Hp)]; eexists; econstructor; eassumption. }
    rewrite (trans_step s _ _ _ (T_call s _ _ _ Hi (T_token s (OLogin h ut (Some p)) x t f Hs Ht U))). reflexivity.
Qed.

Lemma login_effect (s : state) (h ut : N) (p : option bytes) (x : session) :
  get_session s h = Some x -> snd (step s (OLogin h ut p)) = RRv CKR_OK ->
  forall k, tok_login (fst (step s (OLogin h ut p))) k =
            if s_tok x =? k then (if ut =? CKU_SO then LSO else LUser) else tok_login s k.
Proof.
  intros Hs Hok k. destruct (login_rule s h ut p x Hs Hok) as (t & f & Ht & U & ->).
  erewrite tok_login_lupd, Ht by reflexivity. inversion U; reflexivity.
Qed.

(* C_Logout, C_CloseAllSessions and closing the last session leave the token public *)
Lemma login_cleared (s s' : state) (k : N) :
  st_tokens s' = lupd k (fun t => set_t_login t LNone) (st_tokens s) -> tok_login s' k = LNone.
Proof. intros E. rewrite (tok_login_lupd s s' k k _ E), N.eqb_refl. destruct (alookup k (st_tokens s)); reflexivity. Qed.

(* non-vacuity: a concrete history reaching a state with SO logged in and only R/W sessions,
   in which the hypotheses of the lemmas above are met *)
Definition demo_ops : list op :=
  [OInit; OInitToken TFree (Some [49;50;51;52]) 0; OOpen (TTok 0) 6; OLogin 1 CKU_SO (Some [49;50;51;52])].
Example demo_reaches_so : tok_login (exec init_state demo_ops) 0 = LSO /\
                          st_init (exec init_state demo_ops) = true /\ amem 0 (st_tokens (exec init_state demo_ops)) = true.
Proof. vm_compute. auto. Qed.
