(* P11/EntryFacts.v — the guards of the entry points that start a keyed operation, create an object or take a mechanism,
   proved over their REGENERATED translation (gen/Gen_Entry.v, one record of named parameters per function).
   "The body is reached" is expressed with a sentinel, 2^64, which no return code equals: `zz_rest` (the part of the
   function the translator does not express: setting up the session's operation state) or, for functions translated to
   the end, the worker they finally call is instantiated with it.  (C07, C01, C02) *)
From Coq Require Import List NArith Bool Lia ZifyBool.
From SoftHSM Require Import Gen_Const Gen_Entry Wp.
Import ListNotations.
Local Open Scope N_scope.

Definition SENTINEL : N := 18446744073709551616.
Definition bounded (hr : N -> N -> N -> N) : Prop := forall a b c, hr a b c < SENTINEL.
Definition bounded1 (f : N -> N) : Prop := forall a, f a < SENTINEL.

Record init_ok (initialised : N) (session optype token key : N) (keyvalid : bool) (access : N) (usage permitted : bool) : Prop := {
  io_init : initialised <> 0; io_sess : session <> 0; io_op : optype = SESSION_OP_NONE; io_tok : token <> 0;
  io_key : key <> 0 /\ keyvalid = true; io_access : access = CKR_OK; io_usage : usage = true; io_perm : permitted = true }.

(* which key type a mechanism works on: the tables that the eight theorems C07_*Init (props/Properties_C07.v)
   establish from the code *)
Definition mac_fits (m kt : N) : bool :=
  if m =? CKM_MD5_HMAC then (kt =? CKK_GENERIC_SECRET) || (kt =? CKK_MD5_HMAC)
  else if m =? CKM_SHA_1_HMAC then (kt =? CKK_GENERIC_SECRET) || (kt =? CKK_SHA_1_HMAC)
  else if m =? CKM_SHA224_HMAC then (kt =? CKK_GENERIC_SECRET) || (kt =? CKK_SHA224_HMAC)
  else if m =? CKM_SHA256_HMAC then (kt =? CKK_GENERIC_SECRET) || (kt =? CKK_SHA256_HMAC)
  else if m =? CKM_SHA384_HMAC then (kt =? CKK_GENERIC_SECRET) || (kt =? CKK_SHA384_HMAC)
  else if m =? CKM_SHA512_HMAC then (kt =? CKK_GENERIC_SECRET) || (kt =? CKK_SHA512_HMAC)
  else if m =? CKM_DES3_CMAC then (kt =? CKK_DES2) || (kt =? CKK_DES3)
  else if m =? CKM_AES_CMAC then kt =? CKK_AES
  else false.

Definition sym_fits (m kt : N) : bool :=
  if (m =? CKM_DES_ECB) || (m =? CKM_DES_CBC) || (m =? CKM_DES_CBC_PAD) then kt =? CKK_DES
  else if (m =? CKM_DES3_ECB) || (m =? CKM_DES3_CBC) || (m =? CKM_DES3_CBC_PAD) then (kt =? CKK_DES2) || (kt =? CKK_DES3)
  else if (m =? CKM_AES_ECB) || (m =? CKM_AES_CBC) || (m =? CKM_AES_CBC_PAD) || (m =? CKM_AES_CTR) || (m =? CKM_AES_GCM) then kt =? CKK_AES
  else false.

Definition rsa_crypt_fits (m kt : N) : bool :=
  if (m =? CKM_RSA_PKCS) || (m =? CKM_RSA_X_509) || (m =? CKM_RSA_PKCS_OAEP) then kt =? CKK_RSA else false.

Definition is_rsa_sig (m : N) : bool :=
  existsb (N.eqb m) [CKM_RSA_PKCS; CKM_RSA_X_509; CKM_MD5_RSA_PKCS; CKM_SHA1_RSA_PKCS; CKM_SHA224_RSA_PKCS; CKM_SHA256_RSA_PKCS; CKM_SHA384_RSA_PKCS;
                     CKM_SHA512_RSA_PKCS; CKM_RSA_PKCS_PSS; CKM_SHA1_RSA_PKCS_PSS; CKM_SHA224_RSA_PKCS_PSS; CKM_SHA256_RSA_PKCS_PSS; CKM_SHA384_RSA_PKCS_PSS; CKM_SHA512_RSA_PKCS_PSS].
Definition is_dsa_sig (m : N) : bool := existsb (N.eqb m) [CKM_DSA; CKM_DSA_SHA1; CKM_DSA_SHA224; CKM_DSA_SHA256; CKM_DSA_SHA384; CKM_DSA_SHA512].
Definition sig_fits (want_class m cls kt : N) : bool :=
  (cls =? want_class) &&
  (if is_rsa_sig m then kt =? CKK_RSA else if is_dsa_sig m then kt =? CKK_DSA else if m =? CKM_ECDSA then kt =? CKK_EC
   else if m =? CKM_EDDSA then kt =? CKK_EC_EDWARDS else false).
Definition sign_fits := sig_fits CKO_PRIVATE_KEY.
Definition verify_fits := sig_fits CKO_PUBLIC_KEY.

(* `app e = SENTINEL -> guards` is walked along the code (Wp.v): every test on the way either leaves with a return code
   (`exit`: codes and the results of the bounded callees lie below the sentinel) or goes on with its outcome in the
   context; where the sentinel is reached the guards are read off the context. *)
Ltac exit := constructor; intros Hx; exfalso; revert Hx; apply N.lt_neq; solve [reflexivity | auto].

(* The eight *Init functions begin alike: library, mechanism pointer, session, no operation active, token, key handle,
   haveRead on the key, the usage flag, isMechanismPermitted.  Past those nine tests the head of the statement holds. *)
Lemma init_head (r init pm sess op tok key : N) (kv : bool) (acc : N) (us perm : bool) (C : Prop) :
  negb (negb (init =? 0)) = false -> (pm =? 0) = false -> (sess =? 0) = false -> negb (op =? 0) = false -> (tok =? 0) = false ->
  (key =? 0) || negb kv = false -> negb (acc =? 0) = false -> negb us = false -> negb perm = false ->
  wp r (fun x => x = SENTINEL -> C) ->
  wp r (fun x => x = SENTINEL -> pm <> 0 /\ init_ok init sess op tok key kv acc us perm /\ C).
Proof.
  intros H1 H2 H3 H4 H5 H6 H7 H8 H9. apply orb_false_iff in H6. destruct H6. apply wp_mono. intros x Hx Hr.
  split; [|split; [constructor; try split|]]; eauto 3 with guards nocore.
Qed.

(* Behind the head comes the switch on the mechanism, which checks the key's type (and class) case by case.  Where it
   is passed, the mechanism is the case's constant, and the table, computed there, is what the case has checked;
   `attr` is the projection that reads the key's attributes.  Only what the context says of those attributes is kept
   for `lia`, which pays for every hypothesis it sees (and needs ZifyBool for the boolean tests). *)
Ltac fits tbl attr :=
  match goal with H : (?m =? _) = true |- context [tbl ?m] => apply N.eqb_eq in H; rewrite H end;
  repeat match goal with H : context [attr] |- _ => revert H end; clear; intros;
  cbv - [N.eqb orb negb andb attr]; cbn [N.eqb Pos.eqb orb negb andb]; lia.

(* the proof of all eight C07_*Init: walk the head, hand its nine tests to init_head, walk the switch *)
Ltac head_then_switch app gen tbl attr :=
  cbv zeta; wp_reach; cbv beta delta [app gen];
  repeat wp_step; try exit; apply init_head; try assumption;
  repeat first [wp_step | wp_inline]; try exit; reached; fits tbl attr.

(* C07_WrapKey, C02_WrapKey_refuses: an unextractable key is never wrapped; a WRAP_WITH_TRUSTED key only under a trusted
   key; the wrapping key needs CKA_WRAP, a permitted mechanism and the class / type the mechanism asks for *)
Theorem WrapKey_guards (e : C_WrapKey.env) :
  bounded (C_WrapKey.haveRead e) -> bounded1 (C_WrapKey.MechParamCheckRSAPKCSOAEP e) -> C_WrapKey.zz_rest e = SENTINEL ->
  C_WrapKey.app e = SENTINEL ->
  let kgb := C_WrapKey.key_getBooleanValue e in let wgb := C_WrapKey.wrapKey_getBooleanValue e in
  let wgu := C_WrapKey.wrapKey_getUnsignedLongValue e in let mech := C_WrapKey.pMechanism_mechanism e in
  let hr := C_WrapKey.haveRead e in let sst := C_WrapKey.session_getState e in
  kgb CKA_EXTRACTABLE false = true /\
  (kgb CKA_WRAP_WITH_TRUSTED false = true -> wgb CKA_TRUSTED false = true) /\
  wgb CKA_WRAP false = true /\
  C_WrapKey.isMechanismPermitted e (C_WrapKey.handleManager_getObject e (C_WrapKey.hWrappingKey e)) (C_WrapKey.pMechanism e) = true /\
  hr sst (if wgb CKA_TOKEN false then 1 else 0) (if wgb CKA_PRIVATE true then 1 else 0) = CKR_OK /\
  hr sst (if kgb CKA_TOKEN false then 1 else 0) (if kgb CKA_PRIVATE true then 1 else 0) = CKR_OK /\
  ((mech = CKM_AES_KEY_WRAP \/ mech = CKM_AES_KEY_WRAP_PAD) -> wgu CKA_CLASS CKO_VENDOR_DEFINED = CKO_SECRET_KEY /\ wgu CKA_KEY_TYPE CKK_VENDOR_DEFINED = CKK_AES) /\
  ((mech = CKM_RSA_PKCS \/ mech = CKM_RSA_PKCS_OAEP) -> wgu CKA_CLASS CKO_VENDOR_DEFINED = CKO_PUBLIC_KEY /\ wgu CKA_KEY_TYPE CKK_VENDOR_DEFINED = CKK_RSA).
Proof.
  unfold bounded, bounded1. intros Hb Ho Hz. cbv zeta. wp_reach. cbv beta delta [C_WrapKey.app gen_SoftHSM__C_WrapKey].
  (* the checks of the mechanism parameter join in one continuation; all the guards lie behind it *)
  repeat wp_step; try exit. wp_join; [|repeat wp_step; first [exit | auto]].
  repeat wp_step; try exit. reached.
  guards.
Qed.

Theorem UnwrapKey_guards (e : C_UnwrapKey.env) :
  bounded (C_UnwrapKey.haveRead e) -> bounded (C_UnwrapKey.haveWrite e) -> bounded1 (C_UnwrapKey.MechParamCheckRSAPKCSOAEP e) ->
  C_UnwrapKey.hv1_rv e < SENTINEL -> C_UnwrapKey.zz_rest e = SENTINEL ->
  C_UnwrapKey.app e = SENTINEL ->
  let ugb := C_UnwrapKey.unwrapKey_getBooleanValue e in let ugu := C_UnwrapKey.unwrapKey_getUnsignedLongValue e in
  let mech := C_UnwrapKey.pMechanism_mechanism e in let sst := C_UnwrapKey.session_getState e in
  ugb CKA_UNWRAP false = true /\
  C_UnwrapKey.isMechanismPermitted e (C_UnwrapKey.handleManager_getObject e (C_UnwrapKey.hUnwrappingKey e)) (C_UnwrapKey.pMechanism e) = true /\
  C_UnwrapKey.haveRead e sst (if ugb CKA_TOKEN false then 1 else 0) (if ugb CKA_PRIVATE true then 1 else 0) = CKR_OK /\
  (* the object to be created: the write check is applied to the token / private flags extracted from the template *)
  C_UnwrapKey.haveWrite e sst (C_UnwrapKey.hv1_isOnToken e) (C_UnwrapKey.hv1_isPrivate e) = CKR_OK /\
  ((mech = CKM_AES_KEY_WRAP \/ mech = CKM_AES_KEY_WRAP_PAD) -> ugu CKA_CLASS CKO_VENDOR_DEFINED = CKO_SECRET_KEY /\ ugu CKA_KEY_TYPE CKK_VENDOR_DEFINED = CKK_AES) /\
  ((mech = CKM_RSA_PKCS \/ mech = CKM_RSA_PKCS_OAEP) -> ugu CKA_CLASS CKO_VENDOR_DEFINED = CKO_PRIVATE_KEY /\ ugu CKA_KEY_TYPE CKK_VENDOR_DEFINED = CKK_RSA).
Proof.
  unfold bounded, bounded1. intros Hb Hw Ho Hrv Hz. cbv zeta. wp_reach. cbv beta delta [C_UnwrapKey.app gen_SoftHSM__C_UnwrapKey].
  (* as in C_WrapKey, the checks of the mechanism parameter join in one continuation; the guards lie behind it *)
  repeat wp_step; try exit. wp_join; [|repeat wp_step; first [exit | auto]].
  repeat wp_step; try exit. reached.
  guards.
Qed.

(* C07_DeriveKey, C01_DeriveKey_write_check.  C_DeriveKey is translated to the end: one of the four workers is called
   only if the base key has CKA_DERIVE, the mechanism is permitted, the base key is accessible, AND the object to be
   created passes the write check with the token / private flags extracted from ITS template (C01: no private object
   without the user logged in) *)
Theorem DeriveKey_guards (e : C_DeriveKey.env) :
  bounded (C_DeriveKey.haveRead e) -> bounded (C_DeriveKey.haveWrite e) -> C_DeriveKey.hv1_rv e < SENTINEL ->
  (forall a b c d f g h i j, C_DeriveKey.deriveDH e a b c d f g h i j = SENTINEL) ->
  (forall a b c d f g h i j, C_DeriveKey.deriveECDH e a b c d f g h i j = SENTINEL) ->
  (forall a b c d f g h i j, C_DeriveKey.deriveEDDSA e a b c d f g h i j = SENTINEL) ->
  (forall a b c d f g h i j, C_DeriveKey.deriveSymmetric e a b c d f g h i j = SENTINEL) ->
  C_DeriveKey.app e = SENTINEL ->
  let kgb := C_DeriveKey.key_getBooleanValue e in let sst := C_DeriveKey.session_getState e in
  kgb CKA_DERIVE false = true /\
  C_DeriveKey.isMechanismPermitted e (C_DeriveKey.handleManager_getObject e (C_DeriveKey.hBaseKey e)) (C_DeriveKey.pMechanism e) = true /\
  C_DeriveKey.haveRead e sst (if kgb CKA_TOKEN false then 1 else 0) (if kgb CKA_PRIVATE true then 1 else 0) = CKR_OK /\
  C_DeriveKey.haveWrite e sst (C_DeriveKey.hv1_isOnToken e) (C_DeriveKey.hv1_isPrivate e) = CKR_OK.
Proof.
  unfold bounded. intros Hb Hw Hrv H1 H2 H3 H4. cbv zeta. wp_reach. cbv beta delta [C_DeriveKey.app gen_SoftHSM__C_DeriveKey].
  (* the template is scanned in a continuation reached with or without an implied class and key type (`if (isImplicit)`
     has no `else`); the workers are called behind it *)
  repeat wp_step; try exit. wp_join; [|repeat wp_step; auto].
  repeat wp_step; try exit; reached; guards.
Qed.

(* C07_GenerateKey / C07_GenerateKeyPair, C01_GenerateKey_write_check / C01_GenerateKeyPair_write_check.  Both functions
   are translated to the end: a generator runs only if the mechanism is in the configured list and the object(s) to be
   created pass the write check with their own template flags *)
Theorem GenerateKey_guards (e : C_GenerateKey.env) :
  bounded (C_GenerateKey.haveWrite e) ->
  (forall a b c d f g, C_GenerateKey.generateAES e a b c d f g = SENTINEL) -> (forall a b c d f g, C_GenerateKey.generateDES e a b c d f g = SENTINEL) ->
  (forall a b c d f g, C_GenerateKey.generateDES2 e a b c d f g = SENTINEL) -> (forall a b c d f g, C_GenerateKey.generateDES3 e a b c d f g = SENTINEL) ->
  (forall a b c d f g, C_GenerateKey.generateDHParameters e a b c d f g = SENTINEL) -> (forall a b c d f g, C_GenerateKey.generateDSAParameters e a b c d f g = SENTINEL) ->
  (forall a b c d f g, C_GenerateKey.generateGeneric e a b c d f g = SENTINEL) ->
  C_GenerateKey.app e = SENTINEL ->
  C_GenerateKey.find e (C_GenerateKey.supportedMechanisms_begin e) (C_GenerateKey.supportedMechanisms_end e) (C_GenerateKey.pMechanism_mechanism e) <> C_GenerateKey.supportedMechanisms_end e /\
  C_GenerateKey.handleManager_getSession e (C_GenerateKey.hSession e) <> 0 /\
  C_GenerateKey.haveWrite e (C_GenerateKey.session_getState e) (C_GenerateKey.hv1_isOnToken e) (C_GenerateKey.hv1_isPrivate e) = CKR_OK.
Proof.
  unfold bounded. intros Hw H1 H2 H3 H4 H5 H6 H7. wp_reach. cbv beta delta [C_GenerateKey.app gen_SoftHSM__C_GenerateKey].
  (* the switch on the mechanism fixes class and key type, its cases join where the template is scanned *)
  repeat wp_step; try exit. wp_join; [|repeat wp_step; first [exit | auto]].
  repeat wp_step; try exit; reached; guards.
Qed.

Theorem GenerateKeyPair_guards (e : C_GenerateKeyPair.env) :
  (forall a b c, C_GenerateKeyPair.haveWrite e a b c < SENTINEL) ->
  (forall a b c d f g h i j k l, C_GenerateKeyPair.generateDH e a b c d f g h i j k l = SENTINEL) ->
  (forall a b c d f g h i j k l, C_GenerateKeyPair.generateDSA e a b c d f g h i j k l = SENTINEL) ->
  (forall a b c d f g h i j k l, C_GenerateKeyPair.generateEC e a b c d f g h i j k l = SENTINEL) ->
  (forall a b c d f g h i j k l, C_GenerateKeyPair.generateED e a b c d f g h i j k l = SENTINEL) ->
  (forall a b c d f g h i j k l, C_GenerateKeyPair.generateGOST e a b c d f g h i j k l = SENTINEL) ->
  (forall a b c d f g h i j k l, C_GenerateKeyPair.generateRSA e a b c d f g h i j k l = SENTINEL) ->
  C_GenerateKeyPair.app e = SENTINEL ->
  C_GenerateKeyPair.find e (C_GenerateKeyPair.supportedMechanisms_begin e) (C_GenerateKeyPair.supportedMechanisms_end e) (C_GenerateKeyPair.pMechanism_mechanism e)
    <> C_GenerateKeyPair.supportedMechanisms_end e /\
  (* one write check for both halves: on the token if either is, private if either is *)
  C_GenerateKeyPair.haveWrite e (C_GenerateKeyPair.session_getState e)
    (negb (C_GenerateKeyPair.hv1_ispublicKeyToken e =? 0) || negb (C_GenerateKeyPair.hv2_isprivateKeyToken e =? 0))
    (negb (C_GenerateKeyPair.hv1_ispublicKeyPrivate e =? 0) || negb (C_GenerateKeyPair.hv2_isprivateKeyPrivate e =? 0)) = CKR_OK.
Proof.
  intros Hw H1 H2 H3 H4 H5 H6. wp_reach. cbv beta delta [C_GenerateKeyPair.app gen_SoftHSM__C_GenerateKeyPair].
  (* the switch on the mechanism fixes the key type, its cases join where the two templates are scanned *)
  repeat wp_step; try exit. wp_join; [|repeat wp_step; first [exit | auto]].
  repeat wp_step; try exit; reached; guards.
Qed.

