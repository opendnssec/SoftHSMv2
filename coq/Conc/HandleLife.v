(* Conc/HandleLife.v — the whole of HandleManager (src/lib/handle_mgr/HandleManager.cpp) as atomic steps.  Every public
   method takes `handlesMutex` for its whole body, so with locking enabled any execution of any number of threads is a
   sequence of these steps in SOME order; the theorems quantify over every such sequence.  Two maps as in the code:
   `handles` (handle -> Handle record) and `objects` (object pointer -> handle).  The counter only grows and a new handle
   is always counter + 1, hence: a handle value that has died is never issued again, whatever the threads do and in
   whatever order (C11 under C18), and live handle values are pairwise distinct.  Hand model, run against the
   compiled class by the K-handle stream (tools/khandle.py), which loads this file with coq/Conc alone on the path:
   it must import nothing of the development. *)
From Coq Require Import List NArith Bool Lia.
Import ListNotations.
Local Open Scope N_scope.

Inductive kind := KSession | KObject.
Record entry := mkE { eh : N; ekind : kind; eslot : N; esess : N; epriv : bool; eobj : N }.
Record mgr := mkM { ctr : N; handles : list entry; objects : list (N * N) }.   (* objects: (pointer, handle) *)

Definition isobj (e : entry) : bool := match ekind e with KObject => true | KSession => false end.
Definition issess (e : entry) : bool := negb (isobj e).

Fixpoint find_h (h : N) (l : list entry) : option entry :=
  match l with [] => None | e :: r => if eh e =? h then Some e else find_h h r end.
Fixpoint find_o (o : N) (l : list (N * N)) : option N :=
  match l with [] => None | (o', h) :: r => if o' =? o then Some h else find_o o r end.
Definition erase_o (o : N) (l : list (N * N)) : list (N * N) := filter (fun p => negb (fst p =? o)) l.

(* erase every entry satisfying p, and `objects.erase(it->second.object)` for each erased object entry *)
Definition remove_where (p : entry -> bool) (m : mgr) : mgr :=
  mkM (ctr m) (filter (fun e => negb (p e)) (handles m))
      (filter (fun q => negb (existsb (fun e => p e && isobj e && (eobj e =? fst q)) (handles m))) (objects m)).

Inductive op :=
| AddSession (slot sess : N)
| AddObject (slot hsess : N) (priv : bool) (o : N)      (* addSessionObject; addTokenObject is hsess = 0 *)
| DestroyObject (h : N)
| SessionClosed (h : N)
| AllSessionsClosed (slot : N)
| TokenLoggedOut (slot : N).

Definition step (m : mgr) (x : op) : mgr * N :=
  match x with
  | AddSession slot sess =>
      let h := ctr m + 1 in (mkM h (mkE h KSession slot 0 false sess :: handles m) (objects m), h)
  | AddObject slot hsess priv o =>
      match find_o o (objects m) with
      | Some h =>
          match find_h h (handles m) with
          | Some e => if isobj e && (eslot e =? slot) then (m, h)
                      else (mkM (ctr m) (handles m) (erase_o o (objects m)), 0)
          | None => (mkM (ctr m) (handles m) (erase_o o (objects m)), 0)
          end
      | None =>
          let h := ctr m + 1 in (mkM h (mkE h KObject slot hsess priv o :: handles m) ((o, h) :: objects m), h)
      end
  | DestroyObject h => (remove_where (fun e => (eh e =? h) && isobj e) m, 0)
  | SessionClosed h =>
      match find_h h (handles m) with
      | Some s =>
          if issess s then
            let m1 := remove_where (fun e => ((eh e =? h) && issess e) || (isobj e && (esess e =? h))) m in
            if existsb (fun e => issess e && (eslot e =? eslot s)) (handles m1) then (m1, 0)
            else (remove_where (fun e => eslot e =? eslot s) m1, 0)
          else (m, 0)
      | None => (m, 0)
      end
  | AllSessionsClosed slot => (remove_where (fun e => eslot e =? slot) m, 0)
  | TokenLoggedOut slot => (remove_where (fun e => isobj e && (eslot e =? slot) && epriv e) m, 0)
  end.

Fixpoint run (m : mgr) (xs : list op) : mgr :=
  match xs with [] => m | x :: r => run (fst (step m x)) r end.

Definition init : mgr := mkM 0 [] [].
Definition live (m : mgr) (h : N) : Prop := In h (map eh (handles m)).

Lemma filter_map_in {A} (f : A -> N) p l h : In h (map f (filter p l)) -> In h (map f l).
Proof. apply incl_map, incl_filter. Qed.

Lemma remove_where_live p m h : live (remove_where p m) h -> live m h.
Proof. unfold live, remove_where. cbn [handles]. apply filter_map_in. Qed.

Lemma remove_where_ctr p m : ctr (remove_where p m) = ctr m.
Proof. reflexivity. Qed.

(* what a method does to the table: nothing but to `objects`, one new entry under counter + 1, or erasures *)
Inductive evolves (m : mgr) : mgr -> Prop :=
| E_refl : evolves m m
| E_objs ob : evolves m (mkM (ctr m) (handles m) ob)
| E_add e ob : eh e = ctr m + 1 -> evolves m (mkM (ctr m + 1) (e :: handles m) ob)
| E_remove p m1 : evolves m m1 -> evolves m (remove_where p m1).

Lemma step_evolves m x : evolves m (fst (step m x)).
Proof.
  destruct x as [slot sess|slot hsess priv o|h0|h0|slot|slot]; cbn [step fst].
  - apply E_add. reflexivity.
  - destruct (find_o o (objects m)) as [h1|]; [|apply E_add; reflexivity].
    destruct (find_h h1 (handles m)) as [e|]; [destruct (isobj e && (eslot e =? slot))|]; constructor.
  - apply E_remove, E_refl.
  - destruct (find_h h0 (handles m)) as [s|]; [|constructor]. destruct (issess s); [|constructor].
    match goal with |- context[if ?c then _ else _] => destruct c end; repeat apply E_remove; constructor.
  - apply E_remove, E_refl.
  - apply E_remove, E_refl.
Qed.

Lemma step_live m x h : live (fst (step m x)) h -> live m h \/ h = ctr m + 1.
Proof.
  induction (step_evolves m x) as [|ob|e ob He|p m1 _ IH]; auto.
  - intros [H|H]; [right; congruence|auto].
  - intros H. apply IH. exact (remove_where_live _ _ _ H).
Qed.

Lemma step_ctr m x : ctr m <= ctr (fst (step m x)).
Proof. induction (step_evolves m x); cbn; lia. Qed.

Lemma step_out m x : snd (step m x) = 0 \/ live m (snd (step m x)) \/ snd (step m x) = ctr m + 1.
Proof.
  destruct x as [slot sess|slot hsess priv o|h0|h0|slot|slot]; cbn [step]; try (left; reflexivity).
  - right; right; reflexivity.
  - destruct (find_o o (objects m)) as [h1|] eqn:Eo; [|right; right; reflexivity].
    destruct (find_h h1 (handles m)) as [e|] eqn:Eh; [|left; reflexivity].
    destruct (isobj e && (eslot e =? slot)); [|left; reflexivity].
    right; left. cbn [snd]. unfold live. clear Eo. revert Eh. induction (handles m) as [|e' r IH]; cbn; [discriminate|].
    destruct (eh e' =? h1) eqn:E; [intros _; left; apply N.eqb_eq; exact E|intros H; right; exact (IH H)].
  - destruct (find_h h0 (handles m)) as [s|]; [|left; reflexivity].
    destruct (issess s); [|left; reflexivity].
    match goal with |- context[if ?c then _ else _] => destruct c end; left; reflexivity.
Qed.

Definition bounded (m : mgr) : Prop := forall h, live m h -> 0 < h <= ctr m.
Definition inv (m : mgr) : Prop := bounded m /\ NoDup (map eh (handles m)).

Lemma filter_map_nodup {A} (f : A -> N) p l : NoDup (map f l) -> NoDup (map f (filter p l)).
Proof.
  induction l as [|a r IH]; cbn; [auto|]. intros H. inversion H as [|? ? Hn Hr]; subst.
  destruct (p a); cbn; [constructor|]; auto. intros Hin. exact (Hn (filter_map_in _ _ _ _ Hin)).
Qed.

Lemma remove_where_inv p m : inv m -> inv (remove_where p m).
Proof.
  intros [Hb Hn]. split.
  - intros h H. rewrite remove_where_ctr. apply Hb. exact (remove_where_live _ _ _ H).
  - unfold remove_where. cbn [handles]. apply filter_map_nodup. exact Hn.
Qed.

Lemma add_inv m e : inv m -> eh e = ctr m + 1 -> forall ob, inv (mkM (ctr m + 1) (e :: handles m) ob).
Proof.
  intros [Hb Hn] He ob. split.
  - intros h [H|H]; cbn [ctr]; [rewrite <- H, He; lia|]. specialize (Hb h H). lia.
  - cbn. constructor; [|exact Hn]. intros H. specialize (Hb _ H). lia.
Qed.

Lemma step_inv m x : inv m -> inv (fst (step m x)).
Proof.
  intros H. induction (step_evolves m x) as [|ob|e ob He|p m1 _ IH]; [exact H|exact H|apply add_inv; assumption|].
  apply remove_where_inv, IH.
Qed.

Lemma init_inv : inv init.
Proof. split; [intros h []|constructor]. Qed.

Lemma run_inv xs : forall m, inv m -> inv (run m xs).
Proof. induction xs as [|x r IH]; intros m H; [exact H|]. cbn [run]. apply IH. apply step_inv. exact H. Qed.

Lemma run_ctr xs : forall m, ctr m <= ctr (run m xs).
Proof.
  induction xs as [|x r IH]; intros m; cbn [run]; [lia|]. specialize (IH (fst (step m x))). pose proof (step_ctr m x). lia.
Qed.

(* live handle values are pairwise distinct and lie in 1 .. counter, after any calls by any threads in any order *)
Theorem live_handles_distinct : forall xs, NoDup (map eh (handles (run init xs))) /\ bounded (run init xs).
Proof. intros xs. destruct (run_inv xs init init_inv) as [Hb Hn]. split; assumption. Qed.

(* a handle value that has been issued (h <= counter) and is dead stays dead for ever *)
Theorem dead_handle_stays_dead : forall xs m h, h <= ctr m -> ~ live m h -> ~ live (run m xs) h.
Proof.
  induction xs as [|x r IH]; intros m h Hc Hd; [exact Hd|]. cbn [run]. apply IH.
  - pose proof (step_ctr m x). lia.
  - intros H. destruct (step_live m x h H) as [H1|H1]; [exact (Hd H1)|lia].
Qed.

(* ... so no call ever returns it again: whatever a later call returns is 0, or live at that moment, and a dead handle
   is neither *)
Theorem dead_handle_never_returned : forall xs m h x, 0 < h -> h <= ctr m -> ~ live m h ->
  snd (step (run m xs) x) <> h.
Proof.
  intros xs m h x Hp Hc Hd Heq.
  pose proof (dead_handle_stays_dead xs m h Hc Hd) as Hdead.
  pose proof (run_ctr xs m) as Hmono.
  destruct (step_out (run m xs) x) as [H|[H|H]]; rewrite Heq in H; [lia|exact (Hdead H)|lia].
Qed.

(* an object pointer is given a fresh handle only when it has none: the handle returned for a registered object of the
   same slot is the one it already has *)
Theorem registered_object_keeps_handle : forall m slot hs priv o hs' priv',
  snd (step m (AddObject slot hs priv o)) <> 0 ->
  snd (step (fst (step m (AddObject slot hs priv o))) (AddObject slot hs' priv' o)) = snd (step m (AddObject slot hs priv o)).
Proof.
  intros m slot hs priv o hs' priv'. cbn [step].
  destruct (find_o o (objects m)) as [h1|] eqn:Eo.
  - destruct (find_h h1 (handles m)) as [e|] eqn:Eh; [|cbn; congruence].
    destruct (isobj e && (eslot e =? slot)) eqn:Ec; [|cbn; congruence].
    intros _. cbn [fst snd step]. rewrite Eo, Eh, Ec. reflexivity.
  - intros _. cbn [fst snd step objects handles find_o find_h eh]. rewrite !N.eqb_refl. cbn [isobj ekind eslot andb].
    reflexivity.
Qed.

(* non-vacuity: a history in which a handle dies (session 1 closed, its session object 2 with it) and later calls get
   4, never 1 or 2 again *)
Example life_example :
  let m := run init [AddSession 5 100; AddObject 5 1 false 200; AddSession 6 101; SessionClosed 1] in
  (map eh (handles m), ctr m, snd (step m (AddObject 5 0 false 200)), snd (step m (AddSession 5 102)))
  = ([3], 3, 4, 4).
Proof. vm_compute. reflexivity. Qed.
