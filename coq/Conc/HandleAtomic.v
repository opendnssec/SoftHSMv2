(* Conc/HandleAtomic.v — handle registration under threads (HandleManager::addTokenObject): look the object up and, if it
   has no handle yet, issue the next counter value.  With the manager's mutex held across lookup AND insertion the step
   is atomic and every interleaving of threads is a sequence of such steps; with the mutex released in between, two
   threads can both miss the object.  (C18) *)
From Coq Require Import List NArith Lia.
Import ListNotations.
Local Open Scope N_scope.

Record reg := mkReg { counter : N; table : list (N * N) }.        (* (handle, object) *)

Fixpoint handle_of (o : N) (t : list (N * N)) : option N :=
  match t with [] => None | (h, o') :: r => if o' =? o then Some h else handle_of o r end.

(* the atomic step: one call of addTokenObject by some thread *)
Definition register (r : reg) (o : N) : reg * N :=
  match handle_of o (table r) with
  | Some h => (r, h)
  | None => let h := counter r + 1 in (mkReg h ((h, o) :: table r), h)
  end.

Fixpoint run (r : reg) (os : list N) : reg * list N :=
  match os with
  | [] => (r, [])
  | o :: rest => let (r1, h) := register r o in let (r2, hs) := run r1 rest in (r2, h :: hs)
  end.

Definition inv (r : reg) : Prop :=
  (forall h o, In (h, o) (table r) -> 0 < h <= counter r) /\
  NoDup (map fst (table r)) /\ NoDup (map snd (table r)).

Lemma handle_of_In o t h : handle_of o t = Some h -> In (h, o) t.
Proof.
  induction t as [|[h' o'] r IH]; cbn; [discriminate|].
  destruct (o' =? o) eqn:E; [apply N.eqb_eq in E; subst; intros H; injection H as ->; left; reflexivity|intros H; right; exact (IH H)].
Qed.

Lemma handle_of_None o t : handle_of o t = None -> ~ In o (map snd t).
Proof.
  induction t as [|[h' o'] r IH]; cbn; [intros _ []|].
  destruct (o' =? o) eqn:E; [discriminate|]. intros H [Hx|Hx]; [apply N.eqb_neq in E; congruence|exact (IH H Hx)].
Qed.

Lemma register_inv r o : inv r -> inv (fst (register r o)).
Proof.
  intros (Hb & Hh & Ho). unfold register. destruct (handle_of o (table r)) eqn:E; cbn [fst]; [split; [exact Hb|split; assumption]|].
  split; [|split]; cbn [table counter].
  - intros h o' [Heq|Hin]; [injection Heq as <- <-; lia|]. specialize (Hb h o' Hin). lia.
  - cbn. constructor; [|exact Hh]. intros Hin. apply in_map_iff in Hin. destruct Hin as ([h' o'] & Heq & Hin). cbn in Heq. subst h'.
    specialize (Hb _ _ Hin). lia.
  - cbn. constructor; [apply handle_of_None; exact E|exact Ho].
Qed.

Lemma run_inv os : forall r, inv r -> inv (fst (run r os)).
Proof.
  induction os as [|o rest IH]; intros r H; [exact H|]. cbn [run].
  destruct (register r o) as [r1 h] eqn:E. specialize (IH r1). destruct (run r1 rest). apply IH.
  change r1 with (fst (r1, h)). rewrite <- E. apply register_inv, H.
Qed.

Definition empty : reg := mkReg 0 [].
Lemma empty_inv : inv empty.
Proof. split; [intros h o []|split; constructor]. Qed.

(* the split variant: lookup in one critical section, insertion in another *)
Definition lookup_only (r : reg) (o : N) : option N := handle_of o (table r).
Definition insert_only (r : reg) (o : N) : reg * N := let h := counter r + 1 in (mkReg h ((h, o) :: table r), h).

(* threads T1 and T2 both look object 7 up (both miss), then both insert: two handles for one object *)
Example split_registration_duplicates :
  let r0 := empty in
  let m1 := lookup_only r0 7 in
  let m2 := lookup_only r0 7 in
  let r1 := fst (insert_only r0 7) in
  let r2 := fst (insert_only r1 7) in
  (m1, m2, table r2) = (None, None, [(2, 7); (1, 7)]).
Proof. vm_compute. reflexivity. Qed.
