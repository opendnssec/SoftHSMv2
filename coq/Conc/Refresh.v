(* Conc/Refresh.v — the generation protocol by which processes sharing a token directory see each other's committed
   changes (ObjectFile::refresh / Generation::wasUpdated / Generation::sync + update in writeAttributes), at call
   granularity.  One object file: the disk holds (generation, attributes); every process caches what it last read.
     read  p   : Generation::wasUpdated compares the generation at the head of the file with the cached one and reloads
                 on a difference; then the cached attributes are returned
     write p f : as ONE step: refresh, modify, Generation::sync takes the generation from the FILE, update() / get()
                 add one, the file is rewritten with the new generation.  (The real call refreshes BEFORE it takes the
                 object's lock: begin_write / commit_write, split_write_loses_update.)
   (C15) *)
From Coq Require Import List NArith Lia.
Import ListNotations.
Local Open Scope N_scope.

Section Refresh.
  Variable val : Type.

  Record cache := mkCache { c_gen : N; c_val : val }.
  Record world := mkWorld { d_gen : N; d_val : val; caches : list (N * cache) }.   (* process id -> cache *)

  Fixpoint lookup (p : N) (l : list (N * cache)) : option cache :=
    match l with [] => None | (q, c) :: r => if q =? p then Some c else lookup p r end.
  Fixpoint store (p : N) (c : cache) (l : list (N * cache)) : list (N * cache) :=
    match l with [] => [(p, c)] | (q, c0) :: r => if q =? p then (p, c) :: r else (q, c0) :: store p c r end.

  Inductive event := ERead (p : N) | EWrite (p : N) (f : val -> val).

  (* what a process returns for a read: reload iff the generation on disk differs from the cached one (a process
     that never read has no cache and loads) *)
  Definition refreshed (w : world) (p : N) : cache :=
    match lookup p (caches w) with
    | Some c => if c_gen c =? d_gen w then c else mkCache (d_gen w) (d_val w)
    | None => mkCache (d_gen w) (d_val w)
    end.

  Definition step (w : world) (e : event) : world * option val :=
    match e with
    | ERead p => let c := refreshed w p in (mkWorld (d_gen w) (d_val w) (store p c (caches w)), Some (c_val c))
    | EWrite p f =>
        let c := refreshed w p in
        let v := f (c_val c) in
        let g := d_gen w + 1 in                       (* sync: from the file, not from the cache *)
        (mkWorld g v (store p (mkCache g v) (caches w)), None)
    end.

  Fixpoint run (w : world) (es : list event) : world * list (option val) :=
    match es with
    | [] => (w, [])
    | e :: r => let (w1, o) := step w e in let (w2, os) := run w1 r in (w2, o :: os)
    end.

  (* coherence: a cache that carries the disk's generation carries the disk's attributes *)
  Definition coherent (w : world) : Prop :=
    forall p c, lookup p (caches w) = Some c -> c_gen c <= d_gen w /\ (c_gen c = d_gen w -> c_val c = d_val w).

  Lemma lookup_store_same p c l : lookup p (store p c l) = Some c.
  Proof.
    induction l as [|[q c0] r IH]; cbn; [rewrite N.eqb_refl; reflexivity|].
    destruct (q =? p) eqn:E; cbn; [rewrite N.eqb_refl; reflexivity|rewrite E; exact IH].
  Qed.

  Lemma lookup_store_other p q c l : q <> p -> lookup q (store p c l) = lookup q l.
  Proof.
    intros Hne. induction l as [|[r c0] t IH]; cbn.
    - destruct (p =? q) eqn:E; [apply N.eqb_eq in E; congruence|reflexivity].
    - destruct (r =? p) eqn:E.
      + apply N.eqb_eq in E. subst r. cbn. destruct (p =? q) eqn:E2; [apply N.eqb_eq in E2; congruence|reflexivity].
      + cbn. destruct (r =? q); [reflexivity|exact IH].
  Qed.

  Lemma refreshed_fresh w p : coherent w -> c_gen (refreshed w p) = d_gen w /\ c_val (refreshed w p) = d_val w.
  Proof.
    intros H. unfold refreshed. destruct (lookup p (caches w)) as [c|] eqn:E; [|split; reflexivity].
    destruct (c_gen c =? d_gen w) eqn:E2; [|split; reflexivity].
    apply N.eqb_eq in E2. split; [exact E2|]. exact (proj2 (H p c E) E2).
  Qed.

  Lemma step_coherent w e : coherent w -> coherent (fst (step w e)).
  Proof.
    intros H. destruct e as [p|p f]; cbn [step fst]; intros q c Hq; cbn [caches d_gen d_val] in *.
    - destruct (N.eq_dec q p) as [->|Hne].
      + rewrite lookup_store_same in Hq. injection Hq as <-. destruct (refreshed_fresh w p H) as [Hg Hv]. rewrite Hg. split; [lia|intros _; exact Hv].
      + rewrite lookup_store_other in Hq by exact Hne. exact (H q c Hq).
    - destruct (N.eq_dec q p) as [->|Hne].
      + rewrite lookup_store_same in Hq. injection Hq as <-. cbn. split; [lia|reflexivity].
      + rewrite lookup_store_other in Hq by exact Hne. destruct (H q c Hq) as [Hle _]. split; [lia|intros Heq; lia].
  Qed.

  (* every read returns what is committed on disk at that moment, whoever wrote it and whatever the reader cached *)
  Theorem read_returns_committed w p : coherent w -> snd (step w (ERead p)) = Some (d_val w).
  Proof. intros H. cbn. f_equal. exact (proj2 (refreshed_fresh w p H)). Qed.

  (* a write applies its change to the committed value, not to a stale cached one: no update is lost *)
  Theorem write_applies_to_committed w p f : coherent w -> d_val (fst (step w (EWrite p f))) = f (d_val w).
  Proof. intros H. cbn. f_equal. exact (proj2 (refreshed_fresh w p H)). Qed.

  Lemma run_cons w e r : fst (run w (e :: r)) = fst (run (fst (step w e)) r).
  Proof. cbn [run]. destruct (step w e) as [w1 o]. cbn [fst]. destruct (run w1 r). reflexivity. Qed.

  Lemma run_coherent es : forall w, coherent w -> coherent (fst (run w es)).
  Proof. induction es as [|e r IH]; intros w H; [exact H|]. rewrite run_cons. apply IH, step_coherent, H. Qed.

  Definition initial (v : val) : world := mkWorld 0 v [].
  Lemma initial_coherent v : coherent (initial v).
  Proof. intros p c H. discriminate H. Qed.

  (* along every interleaving of calls of any number of processes: a read that follows the history returns the
     committed value *)
  Theorem reads_see_committed v es p :
    let w := fst (run (initial v) es) in snd (step w (ERead p)) = Some (d_val w).
  Proof. cbn zeta. apply read_returns_committed. apply run_coherent. apply initial_coherent. Qed.

  (* the committed value is the fold of the writes in call order: nothing lost, nothing duplicated *)
  Fixpoint writes (es : list event) (v : val) : val :=
    match es with [] => v | ERead _ :: r => writes r v | EWrite _ f :: r => writes r (f v) end.
  Theorem committed_is_fold es : forall w, coherent w -> d_val (fst (run w es)) = writes es (d_val w).
  Proof.
    induction es as [|e r IH]; intros w H; [reflexivity|]. rewrite run_cons, IH by (apply step_coherent, H).
    destruct e as [p|p f]; cbn [writes]; [reflexivity|]. rewrite write_applies_to_committed by exact H. reflexivity.
  Qed.

  (* why Generation::sync matters: a writer that numbers its write from its CACHED generation *)
  Definition step_nosync (w : world) (e : event) : world * option val :=
    match e with
    | ERead p => step w e
    | EWrite p f =>
        let c := match lookup p (caches w) with Some c => c | None => mkCache (d_gen w) (d_val w) end in
        let v := f (c_val c) in
        let g := c_gen c + 1 in
        (mkWorld g v (store p (mkCache g v) (caches w)), None)
    end.

  (* file-operation granularity: the real C_SetAttributeValue refreshes (isValid) BEFORE it takes the object's
     transaction lock and commits from that copy; another process may commit in between *)
  Definition begin_write (w : world) (p : N) : cache := refreshed w p.
  Definition commit_write (w : world) (p : N) (c : cache) (f : val -> val) : world :=
    let v := f (c_val c) in
    let g := d_gen w + 1 in
    mkWorld g v (store p (mkCache g v) (caches w)).
End Refresh.

(* two processes that both cached generation 0 write one after the other: both writes carry generation 1, and the
   first writer keeps returning its own, overwritten value *)
Example nosync_serves_stale :
  let w0 := initial N 10 in
  let w1 := fst (step N w0 (ERead N 1)) in
  let w2 := fst (step N w1 (ERead N 2)) in
  let w3 := fst (step_nosync N w2 (EWrite N 1 (fun _ => 11))) in
  let w4 := fst (step_nosync N w3 (EWrite N 2 (fun _ => 12))) in
  (d_val N w4, snd (step N w4 (ERead N 1))) = (12, Some 11).
Proof. vm_compute. reflexivity. Qed.

(* with the sync the same history is coherent *)
Example sync_serves_fresh :
  let w0 := initial N 10 in
  let w1 := fst (step N w0 (ERead N 1)) in
  let w2 := fst (step N w1 (ERead N 2)) in
  let w3 := fst (step N w2 (EWrite N 1 (fun _ => 11))) in
  let w4 := fst (step N w3 (EWrite N 2 (fun _ => 12))) in
  (d_val N w4, snd (step N w4 (ERead N 1))) = (12, Some 12).
Proof. vm_compute. reflexivity. Qed.

(* two processes change different components (label, id) of one object; A took its copy, B commits, A commits:
   both calls succeed, B's committed change is gone *)
Example split_write_loses_update :
  let w0 := initial (N * N) (1, 1) in
  let ca := begin_write (N * N) w0 1 in
  let w1 := fst (step (N * N) w0 (EWrite (N * N) 2 (fun v => (2, snd v)))) in          (* B: label := 2 *)
  let w2 := commit_write (N * N) w1 1 ca (fun v => (fst v, 5)) in                       (* A: id := 5, from its stale copy *)
  (d_val (N * N) w1, d_val (N * N) w2) = ((2, 1), (1, 5)).
Proof. vm_compute. reflexivity. Qed.
