(* Conc/HandleLifeFacts.v — handles die EXACTLY with what they denote, for the whole HandleManager model (HandleLife.v):
   each erasing method removes precisely the entries its rule names and keeps every other entry unchanged. (C11 / C18) *)
From Coq Require Import List NArith Bool.
From SoftHSM Require Import HandleLife.
Import ListNotations.
Local Open Scope N_scope.

Lemma remove_where_exact p m e : In e (handles (remove_where p m)) <-> In e (handles m) /\ p e = false.
Proof.
  unfold remove_where. cbn [handles]. rewrite filter_In. split; intros [H1 H2]; (split; [exact H1|]).
  - destruct (p e); [discriminate|reflexivity].
  - rewrite H2. reflexivity.
Qed.

(* C_DestroyObject: exactly the object entry with that handle goes; sessions with the same number are not touched *)
Theorem destroy_exact : forall m h e,
  In e (handles (fst (step m (DestroyObject h)))) <-> In e (handles m) /\ ((eh e =? h) && isobj e = false).
Proof. intros m h e. cbn [step fst]. apply remove_where_exact. Qed.

(* C_Logout: exactly the private object entries of that slot go *)
Theorem logout_exact : forall m slot e,
  In e (handles (fst (step m (TokenLoggedOut slot)))) <-> In e (handles m) /\ (isobj e && (eslot e =? slot) && epriv e = false).
Proof. intros m slot e. cbn [step fst]. apply remove_where_exact. Qed.

(* C_CloseAllSessions: exactly the entries of that slot go; other slots keep everything *)
Theorem all_closed_exact : forall m slot e,
  In e (handles (fst (step m (AllSessionsClosed slot)))) <-> In e (handles m) /\ (eslot e =? slot) = false.
Proof. intros m slot e. cbn [step fst]. apply remove_where_exact. Qed.

Theorem other_slot_untouched : forall m slot e, eslot e <> slot ->
  (In e (handles (fst (step m (AllSessionsClosed slot)))) <-> In e (handles m)) /\
  (In e (handles (fst (step m (TokenLoggedOut slot)))) <-> In e (handles m)).
Proof.
  intros m slot e Hne. apply N.eqb_neq in Hne. split.
  - rewrite all_closed_exact. rewrite Hne. tauto.
  - rewrite logout_exact. rewrite Hne. rewrite andb_false_r. cbn. tauto.
Qed.

(* C_CloseSession of a live session: the session itself and every session object created through it are gone *)
Theorem session_closed_kills_its_objects : forall m h s e,
  find_h h (handles m) = Some s -> issess s = true ->
  In e (handles (fst (step m (SessionClosed h)))) -> ~ (isobj e = true /\ esess e = h) /\ ~ (issess e = true /\ eh e = h).
Proof.
  intros m h s e Hs Hk. cbn [step]. rewrite Hs, Hk. intros H.
  (* whether or not the token's last session went, e survived the erasure of h and of what h owns *)
  assert (H1 : In e (handles (remove_where (fun e => ((eh e =? h) && issess e) || (isobj e && (esess e =? h))) m))).
  { revert H. match goal with |- context[if ?c then _ else _] => destruct c end; cbn [fst]; [auto|].
    intros H. apply remove_where_exact in H. tauto. }
  apply remove_where_exact in H1. destruct H1 as [_ H1]. apply orb_false_iff in H1. destruct H1 as [Ha Hb].
  split; intros [H1 <-].
  - rewrite H1, N.eqb_refl in Hb. discriminate.
  - rewrite H1, N.eqb_refl in Ha. discriminate.
Qed.

(* ... and while another session of the token stays open, nothing else goes *)
Theorem session_closed_keeps_the_rest : forall m h s e,
  find_h h (handles m) = Some s -> issess s = true ->
  existsb (fun e' => issess e' && (eslot e' =? eslot s))
          (handles (remove_where (fun e' => ((eh e' =? h) && issess e') || (isobj e' && (esess e' =? h))) m)) = true ->
  In e (handles m) -> ((eh e =? h) && issess e) || (isobj e && (esess e =? h)) = false ->
  In e (handles (fst (step m (SessionClosed h)))).
Proof.
  intros m h s e Hs Hk Hopen Hin Hp. cbn [step]. rewrite Hs, Hk, Hopen. cbn [fst]. apply remove_where_exact. split; assumption.
Qed.

Theorem session_closed_unknown_noop : forall m h, find_h h (handles m) = None -> fst (step m (SessionClosed h)) = m.
Proof. intros m h H. cbn [step]. rewrite H. reflexivity. Qed.

(* "one handle per object" does NOT hold of the manager for an object pointer that is presented under two slots: the
   mismatch branch erases only the pointer's entry in `objects`, the pointer is then registered afresh, and destroying the
   OLD handle erases the NEW mapping (objects.erase is by pointer), so the next registration issues a third handle while
   the second is still live.  The same sequence run on the compiled class (harness/hmdrv: `t 5 0 200 t 6 0 200 t 6 0 200
   d 1 t 6 0 200`) prints `rv 1 0 2 0 3 live 2 3`.  The library's callers present a pointer under one slot only, so this
   needs the allocator to reuse the address of a freed object of another token; recorded as an observation. *)
Example one_handle_per_object_refuted_across_slots :
  let xs := [AddObject 5 0 false 200; AddObject 6 0 false 200; AddObject 6 0 false 200; DestroyObject 1] in
  let m := run init xs in
  (snd (step m (AddObject 6 0 false 200)),
   map (fun e => (eh e, eslot e, eobj e)) (handles (fst (step m (AddObject 6 0 false 200)))))
  = (3, [(3, 6, 200); (2, 6, 200)]).
Proof. vm_compute. reflexivity. Qed.
