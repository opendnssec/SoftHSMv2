(* Crypto/DeriveFacts.v — the length of a derived secret key (C13).

   Which CKA_VALUE_LEN a derivation accepts for which key type, and the length it then cuts the shared secret to, is
   decided in deriveDH / deriveECDH / deriveEDDSA / deriveSymmetric (SoftHSM.cpp) by a switch on the key type.  The
   translator regenerates those functions up to the call of the crypto backend (gen/Gen_Entry.v); the scan of the
   template is a loop and is havoc'ed: the value of `byteLen` after it is the universally quantified `hv1_byteLen`, and
   the loop may leave the function with an unknown code.  The regenerated prefix hands its local `byteLen` to the rest
   of the function (`zz_rest byteLen`).

   `derive_len_strict` / `derive_len_lax` (Derive.v) are the model; the theorems say that the code reaches the
   derivation exactly with the model's length, for every value of every other input.  The second half is about the
   hand model (Derive.v: `agree_value`) of what the rest of the function does with that length (0 stands for as much
   as there is; cut from the leading end; DES parity), tied by the correspondence stream K-crypto C13 only. *)
From Coq Require Import List NArith Bool Lia Arith.
From SoftHSM Require Import Gen_Const Gen_Entry Defs Pad Derive Wp.

Local Open Scope N_scope.

(* The sentinel carries the length: the rest of the function is assumed to answer `zz_rest n = SENT + n`, a value above
   every return code (2^64), so that `app e = SENT + n` says "the derivation is reached, with byteLen = n". *)
Definition SENT : N := 18446744073709551616.

Lemma sent_ne (c n : N) : (c <? SENT) = true -> c = SENT + n -> False.
Proof. intros H E. apply N.ltb_lt in H. lia. Qed.

(* The four functions share their build: checks that leave with a return code, the scan of the template, the switch on
   the key type that fixes `byteLen`, and a tail (`k`, a continuation that takes byteLen) that fetches the base key and
   hands byteLen to the rest.  The tail is walked once: it ends at the sentinel only with the length it was given.
   `exit` closes a leaf that leaves with a return code: a code is below the sentinel. *)
Ltac exit := constructor; intros Hx; exfalso; revert Hx; apply sent_ne; first [reflexivity | apply N.ltb_lt; assumption].

(* the tail as the translator prints it: it takes byteLen (and the unit every continuation ends with); should a change
   of the C++ make it take more, this type and the cut below follow the printed continuation *)
Definition hands_on (n : N) (k : N -> unit -> N) : Prop := forall b u, wp (k b u) (fun r => r = SENT + n -> n = b).

Lemma rest_hands_on (rest : N -> N) (n b : N) : (forall x, rest x = SENT + x) -> wp (rest b) (fun r => r = SENT + n -> n = b).
Proof. intros Hz. constructor. rewrite Hz. intros H. apply N.add_cancel_l in H. symmetry. exact H. Qed.

(* At a call `k b tt` of the tail below the switch.  By wp_mono it suffices that what the tail guarantees of its result x
   (Hx : x = SENT + n -> n = b, from hands_on) gives the claim when x is the sentinel (Hr : x = SENT + n).  So n is b.
   The model is a chain of tests on the key type and the requested length, the same the code has just made: each
   stands in the context with its outcome, and rewriting with all of them leaves `inr b = inr b`. *)
Ltac by_switch model :=
  eapply wp_mono; [|match goal with I : hands_on _ _ |- _ => apply I end];
  cbv beta; intros x Hx Hr; apply Hx in Hr; subst;
  cbv [model CKK_GENERIC_SECRET CKK_DES CKK_DES2 CKK_DES3 CKK_AES];
  repeat match goal with H : ?b = _ |- context [?b] => rewrite H end;
  auto.

(* deriveDH, deriveECDH and deriveEDDSA are built alike.  The proof of all three: walk to the tail and cut there with
   hands_on (first goal: the tail, down to the rest of the function); then walk the switch on the key type. *)
Ltac tail_then_switch app gen model :=
  intros Hz Hb n; wp_reach; cbv beta delta [app gen];
  repeat wp_step; try exit; wp_cut (hands_on n);
  [ intros b ?; repeat wp_step; try exit; apply rest_hands_on, Hz
  | repeat wp_step; try exit; by_switch model ].

(* the regenerated code reaches the derivation with exactly the model's length *)
Theorem deriveDH_len (e : deriveDH.env) :
  (forall n, deriveDH.zz_rest e n = SENT + n) -> deriveDH.hv1_loop_rv e < SENT ->
  forall n, deriveDH.app e = SENT + n ->
  deriveDH.hv1_loop_returns e = false /\ derive_len_strict (deriveDH.keyType e) (deriveDH.hv1_byteLen e) = inr n.
Proof. tail_then_switch deriveDH.app gen_SoftHSM__deriveDH derive_len_strict. Qed.

Theorem deriveSymmetric_len (e : deriveSymmetric.env) :
  (forall n, deriveSymmetric.zz_rest e n = SENT + n) -> deriveSymmetric.hv1_loop_rv e < SENT ->
  forall n, deriveSymmetric.app e = SENT + n ->
  deriveSymmetric.hv1_loop_returns e = false /\
  let m := deriveSymmetric.pMechanism_mechanism e in
  let req := deriveSymmetric.hv1_byteLen e in
  if (0 <? req) || (negb (m =? CKM_CONCATENATE_DATA_AND_BASE) && negb (m =? CKM_CONCATENATE_BASE_AND_DATA) && negb (m =? CKM_CONCATENATE_BASE_AND_KEY))
  then derive_len_strict (deriveSymmetric.keyType e) req = inr n
  else n = 0.        (* the concatenations without CKA_VALUE_LEN: the length is that of the concatenation, checked by checkKeyLength later *)
Proof.
  intros Hz Hb n. cbv zeta delta [CKM_CONCATENATE_DATA_AND_BASE CKM_CONCATENATE_BASE_AND_DATA CKM_CONCATENATE_BASE_AND_KEY].
  wp_reach. cbv beta delta [deriveSymmetric.app gen_SoftHSM__deriveSymmetric].
  (* two joins on the way: after the checks of the mechanism parameter (one per mechanism), after the fetch of the other key *)
  repeat wp_step; [exit|].
  wp_join; [|repeat first [wp_step | wp_inline]; first [exit | auto]].
  repeat wp_step; try exit.
  wp_join; [|repeat wp_step; first [exit | auto]].
  repeat wp_step; try exit.
  wp_cut (hands_on n).
  { intros b ?. repeat wp_step.
    (* the switch that chooses cipher and mode joins where the base key is fetched; as printed, that continuation takes
       cipher, block size and mode (and the unit) *)
    wp_cut (fun k => forall x y z u, wp (k x y z u) (fun r => r = SENT + n -> n = b)).
    - intros. repeat wp_step; [exit|]. apply rest_hands_on, Hz.
    - repeat wp_step; first [exit | auto]. }
  repeat wp_step.
  - wp_inline. repeat wp_step; try exit;
      match goal with H : _ || _ = true |- _ => rewrite H end; by_switch derive_len_strict.
  - match goal with H : _ || _ = false |- _ => rewrite H; apply orb_false_iff, proj1, N.ltb_ge, N.le_0_r in H end.
    by_switch derive_len_strict.
Qed.

Theorem deriveECDH_len (e : deriveECDH.env) :
  (forall n, deriveECDH.zz_rest e n = SENT + n) -> deriveECDH.hv1_loop_rv e < SENT ->
  forall n, deriveECDH.app e = SENT + n ->
  deriveECDH.hv1_loop_returns e = false /\ derive_len_lax (deriveECDH.keyType e) (deriveECDH.hv1_byteLen e) = inr n.
Proof. tail_then_switch deriveECDH.app gen_SoftHSM__deriveECDH derive_len_lax. Qed.

Theorem deriveEDDSA_len (e : deriveEDDSA.env) :
  (forall n, deriveEDDSA.zz_rest e n = SENT + n) -> deriveEDDSA.hv1_loop_rv e < SENT ->
  forall n, deriveEDDSA.app e = SENT + n ->
  deriveEDDSA.hv1_loop_returns e = false /\ derive_len_lax (deriveEDDSA.keyType e) (deriveEDDSA.hv1_byteLen e) = inr n.
Proof. tail_then_switch deriveEDDSA.app gen_SoftHSM__deriveEDDSA derive_len_lax. Qed.

Lemma refused_unless (b : bool) (err : N) : err <> CKR_OK -> (if negb b then err else CKR_OK) = CKR_OK <-> b = true.
Proof. intros He. destruct b; cbn; split; intros H; first [reflexivity | contradiction | discriminate]. Qed.

Theorem checkKeyLength_spec (kt n : N) : gen_SoftHSM__checkKeyLength kt n = CKR_OK <-> len_fits kt n = true.
Proof.
  (* the code has literals: 16, 19, 20, 21, 31 = CKK_GENERIC_SECRET, CKK_DES, CKK_DES2, CKK_DES3, CKK_AES *)
  cbv [gen_SoftHSM__checkKeyLength len_fits CKK_GENERIC_SECRET CKK_DES CKK_DES2 CKK_DES3 CKK_AES].
  destruct (kt =? 16); [tauto|].                                 (* a generic secret: any length *)
  destruct (kt =? 19); [apply refused_unless; discriminate|].    (* DES: 8 *)
  destruct (kt =? 20); [apply refused_unless; discriminate|].    (* DES2: 16 *)
  destruct (kt =? 21); [apply refused_unless; discriminate|].    (* DES3: 24 *)
  destruct (kt =? 31); [|split; discriminate].                   (* any other type is refused *)
  (* AES: 16, 24 or 32 *)
  rewrite <- !negb_orb. apply refused_unless. discriminate.
Qed.

Lemma accepted (c : bool) (err l n : N) : (if c then inl err else inr l) = inr n -> n = l.
Proof. destruct c; [discriminate|]. intros [= <-]. reflexivity. Qed.

(* what the strict check lets through always fits the key type, and is never empty *)
Theorem strict_len_fits (kt req n : N) : derive_len_strict kt req = inr n -> len_fits kt n = true /\ n <> 0.
Proof.
  unfold derive_len_strict, len_fits.
  destruct (kt =? CKK_GENERIC_SECRET).
  { (* any length but 0 *) destruct (N.eqb_spec req 0); intros [= <-]; auto. }
  destruct (kt =? CKK_DES); [|destruct (kt =? CKK_DES2); [|destruct (kt =? CKK_DES3)]].
  1-3: (* a DES type: its own length *) intros H; apply accepted in H; subst n; (split; [reflexivity | discriminate]).
  destruct (kt =? CKK_AES); [|discriminate].
  (* AES: the request is one of the three lengths, and is the length *)
  destruct (_ && _) eqn:E; [discriminate|]. intros [= <-]. split.
  - rewrite <- !negb_orb in E. apply negb_false_iff, E.
  - intros ->. discriminate E.
Qed.

Lemma derive_tail_length n s v : derive_tail n s = Some v -> length v = n.
Proof.
  unfold derive_tail. destruct (Nat.ltb_spec (length s) n) as [Hlt|Hge]; [discriminate|].
  intros E; inversion E; subst. rewrite skipn_length. lia.
Qed.

Lemma derive_tail_suffix n s v : derive_tail n s = Some v -> exists pre, s = pre ++ v.
Proof.
  unfold derive_tail. destruct (Nat.ltb_spec (length s) n) as [Hlt|Hge]; [discriminate|].
  intros E; inversion E; subst. exists (firstn (length s - n) s). symmetry. apply firstn_skipn.
Qed.

Lemma derive_tail_none n s : derive_tail n s = None <-> (length s < n)%nat.
Proof. unfold derive_tail. destruct (Nat.ltb_spec (length s) n); split; intros; try discriminate; try lia; reflexivity. Qed.

Lemma odd_parity_length k : length (odd_parity k) = length k.
Proof. unfold odd_parity. apply map_length. Qed.

(* the value of a key agreed by ECDH / EDDSA always has a length its type allows (whatever the secret's length), and for a
   generic secret exactly the requested length, or the whole secret when none was requested *)
Theorem agreed_value_fits (kt req n : N) (secret v : bytes) :
  derive_len_lax kt req = inr n -> agree_value kt n secret = Some v ->
  len_fits kt (N.of_nat (length v)) = true /\
  (kt = CKK_GENERIC_SECRET -> length v = if req =? 0 then length secret else N.to_nat req).
Proof.
  unfold agree_value. intros Hl Ha.
  destruct (derive_tail _ secret) as [t|] eqn:Et; [|discriminate].
  apply derive_tail_length in Et.
  assert (Hv : length v = length t).
  { injection Ha as <-. destruct (is_des_type kt); [apply odd_parity_length|reflexivity]. }
  rewrite Hv, Et, N2Nat.id. clear Ha Hv Et t v.
  (* what is left is about the length the value is cut to, `default_len kt n (length secret)`, type by type *)
  revert Hl. unfold derive_len_lax, len_fits, default_len.
  destruct (N.eqb_spec kt CKK_GENERIC_SECRET) as [_|Ng].
  { (* a generic secret: the requested length, or all there is *)
    intros [= <-]. split; [reflexivity|]. intros _. destruct (req =? 0); [apply Nat2N.id | reflexivity]. }
  destruct (kt =? CKK_DES); [|destruct (kt =? CKK_DES2); [|destruct (kt =? CKK_DES3)]].
  1-3: (* a DES type: its own length, which is not 0 *)
    intros H; apply accepted in H; subst n; (split; [reflexivity | intros E; contradiction]).
  destruct (kt =? CKK_AES); [|discriminate].
  destruct (N.eqb_spec req 0) as [->|N0].
  - (* AES, nothing requested: n is 0, and the value is as much of 32, 24, 16 as the secret has *)
    intros [= <-]. split; [|intros E; contradiction].
    change (0 =? 0) with true. cbv iota.
    destruct (32 <=? _); [reflexivity|]. destruct (24 <=? _); reflexivity.
  - (* AES, a request: it is one of the three lengths, and is the length *)
    cbn [negb andb]. destruct (_ && _) eqn:E; [discriminate|]. intros [= <-].
    apply N.eqb_neq in N0. rewrite N0. split; [|intros E'; contradiction].
    rewrite <- !negb_orb in E. apply negb_false_iff, E.
Qed.

(* non-vacuity: an AES key agreed without CKA_VALUE_LEN from a 66-byte secret (P-521) is the last 32 bytes *)
Example agree_p521 :
  derive_len_lax CKK_AES 0 = inr 0 /\
  agree_value CKK_AES 0 (map N.of_nat (seq 0 66)) = Some (map N.of_nat (seq 34 32)).
Proof. split; vm_compute; reflexivity. Qed.
