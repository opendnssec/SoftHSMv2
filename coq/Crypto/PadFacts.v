(* Crypto/PadFacts.v — proofs about Crypto/Pad.v (PKCS#7 pad/unpad, RFC 3394 zero pad, DES parity,
   derive truncation). *)
From Coq Require Import List NArith Arith Bool Lia.
From SoftHSM Require Import ListFacts Pad.
Import ListNotations.

Lemma padlen_range : forall bs len, (1 <= bs)%nat ->
  (1 <= pkcs7_padlen bs len <= bs)%nat /\ pkcs7_padlen bs len = (bs - len mod bs)%nat.
Proof.
  intros bs len Hbs. unfold pkcs7_padlen.
  assert (Hm : (len mod bs < bs)%nat) by (apply Nat.mod_upper_bound; lia).
  destruct (Nat.eqb_spec (bs - len mod bs) 0) as [H0|H0]; lia.
Qed.

Lemma fill_aligned : forall b len, (1 <= b)%nat -> ((len + (b - len mod b)) mod b = 0)%nat.
Proof.
  intros b len Hb.
  assert (Hm : (len mod b < b)%nat) by (apply Nat.mod_upper_bound; lia).
  rewrite <- Nat.add_mod_idemp_l by lia.
  replace (len mod b + (b - len mod b))%nat with b by lia. apply Nat.mod_same. lia.
Qed.

Lemma padlen_aligned : forall bs len, (1 <= bs)%nat -> ((len + pkcs7_padlen bs len) mod bs = 0)%nat.
Proof.
  intros bs len Hbs. destruct (padlen_range bs len Hbs) as [_ ->]. apply fill_aligned. exact Hbs.
Qed.

Lemma padlen_unique : forall bs len n, (1 <= n <= bs)%nat -> ((len + n) mod bs = 0)%nat ->
  pkcs7_padlen bs len = n.
Proof.
  intros bs len n Hn Hal. destruct (padlen_range bs len ltac:(lia)) as [_ ->].
  assert (Hm : (len mod bs < bs)%nat) by (apply Nat.mod_upper_bound; lia).
  rewrite <- Nat.add_mod_idemp_l in Hal by lia.
  apply Nat.mod_divides in Hal; [|lia]. destruct Hal as [[|[|c]] Hc]; [lia|lia|].
  rewrite !Nat.mul_succ_r in Hc. lia.
Qed.

(* the dead branch of RFC5652Pad *)
Lemma padlen_zero_branch_dead : forall bs len, (1 <= bs)%nat -> ((bs - len mod bs =? 0) = false)%nat.
Proof.
  intros bs len Hbs.
  assert (Hm : (len mod bs < bs)%nat) by (apply Nat.mod_upper_bound; lia).
  apply Nat.eqb_neq. lia.
Qed.

Lemma padlen_mod_add : forall bs k len, (1 <= bs)%nat ->
  pkcs7_padlen bs (k * bs + len) = pkcs7_padlen bs len.
Proof.
  intros bs k len Hbs. unfold pkcs7_padlen.
  replace (k * bs + len)%nat with (len + k * bs)%nat by lia.
  rewrite Nat.mod_add by lia. reflexivity.
Qed.

Lemma pad_byte_small : forall n, (n <= 255)%nat -> N.to_nat (pad_byte n) = n /\ (pad_byte n < 256)%N.
Proof.
  intros n Hn. unfold pad_byte.
  assert (H : (N.of_nat n < 256)%N) by lia.
  rewrite N.mod_small by exact H. split; [apply Nat2N.id | exact H].
Qed.

Lemma pkcs7_pad_length_eq : forall bs d,
  length (pkcs7_pad bs d) = (length d + pkcs7_padlen bs (length d))%nat.
Proof. intros bs d. unfold pkcs7_pad. now rewrite app_length, repeat_length. Qed.

Theorem pad_length : forall bs d, (1 <= bs)%nat ->
  (length (pkcs7_pad bs d) mod bs = 0)%nat
  /\ (0 < length (pkcs7_pad bs d))%nat
  /\ (length d < length (pkcs7_pad bs d) <= length d + bs)%nat.
Proof.
  intros bs d Hbs. rewrite pkcs7_pad_length_eq.
  destruct (padlen_range bs (length d) Hbs) as [Hr _].
  split; [apply padlen_aligned; exact Hbs | lia].
Qed.

Lemma pad_length_multiple : forall bs d, (1 <= bs)%nat ->
  exists k, (1 <= k)%nat /\ length (pkcs7_pad bs d) = (k * bs)%nat.
Proof.
  intros bs d Hbs. destruct (pad_length bs d Hbs) as [Hm [Hp _]].
  apply Nat.mod_divides in Hm; [|lia]. destruct Hm as [k Hk]. exists k.
  split; [destruct k; [rewrite Nat.mul_0_r in Hk|]; lia | rewrite Hk; apply Nat.mul_comm].
Qed.

Lemma pad_prefix : forall bs d, firstn (length d) (pkcs7_pad bs d) = d.
Proof. intros bs d. unfold pkcs7_pad. apply firstn_app_len. Qed.

Lemma pad_bytes_small : forall bs d,
  Forall (fun x => (x < 256)%N) d -> Forall (fun x => (x < 256)%N) (pkcs7_pad bs d).
Proof.
  intros bs d Hd. unfold pkcs7_pad. apply Forall_app. split; [exact Hd|].
  apply Forall_forall. intros x Hx. apply repeat_spec in Hx. subst x.
  unfold pad_byte. apply N.mod_lt. discriminate.
Qed.

Lemma pkcs7_unpad_ne : forall bs p, (1 <= bs)%nat -> p <> [] ->
  pkcs7_unpad bs p =
  if negb (length p mod bs =? 0) then None
  else if (N.to_nat (last p 0%N) =? 0) || (bs <? N.to_nat (last p 0%N)) then None
  else if forallb (N.eqb (last p 0%N)) (skipn (length p - N.to_nat (last p 0%N)) p)
       then Some (firstn (length p - N.to_nat (last p 0%N)) p) else None.
Proof.
  intros bs p Hbs Hp. unfold pkcs7_unpad.
  destruct bs as [|bs']; [lia|]. destruct p as [|x0 p0]; [contradiction | reflexivity].
Qed.

(* unpad_inv and unpad_intro together say what RFC5652Unpad does: it accepts exactly its result followed by n bytes of
   value n, 1 <= n <= bs, block-aligned *)
Lemma unpad_inv : forall bs p d, pkcs7_unpad bs p = Some d ->
  exists n, (1 <= n <= bs)%nat /\ (length p mod bs = 0)%nat /\ p = d ++ repeat (N.of_nat n) n.
Proof.
  intros bs p d H. unfold pkcs7_unpad in H.
  destruct bs as [|bs']; [discriminate|].
  destruct (Nat.eqb_spec (length p mod S bs') 0) as [Hm|Hm]; cbn [negb] in H; [|discriminate].
  destruct p as [|x0 p0] eqn:Hp; [discriminate|]. rewrite <- Hp in *.
  assert (Hlp : (S bs' <= length p)%nat).
  { destruct (Nat.lt_ge_cases (length p) (S bs')) as [Hlt|Hge]; [|exact Hge].
    rewrite (Nat.mod_small _ _ Hlt), Hp in Hm. discriminate Hm. }
  set (pb := last p 0%N) in *. set (n := N.to_nat pb) in *.
  destruct (Nat.eqb_spec n 0) as [H0|H0]; cbn [orb] in H; [discriminate|].
  destruct (Nat.ltb_spec (S bs') n) as [Hlt|Hle]; [discriminate|].
  destruct (forallb (N.eqb pb) (skipn (length p - n) p)) eqn:Hall; [|discriminate].
  injection H as H. subst d.
  exists n. split; [lia|]. split; [exact Hm|].
  rewrite <- (firstn_skipn (length p - n) p) at 1. f_equal. unfold n at 2. rewrite N2Nat.id.
  replace n with (length (skipn (length p - n) p)) at 2 by (rewrite skipn_length; lia).
  apply Forall_eq_repeat, Forall_forall. intros y Hy. apply N.eqb_eq.
  rewrite forallb_forall in Hall. exact (Hall y Hy).
Qed.

Lemma unpad_intro : forall bs d n, (1 <= n <= bs)%nat -> ((length d + n) mod bs = 0)%nat ->
  pkcs7_unpad bs (d ++ repeat (N.of_nat n) n) = Some d.
Proof.
  intros bs d n Hn Hal. set (x := N.of_nat n).
  assert (Hlast : last (d ++ repeat x n) 0%N = x).
  { destruct n as [|n']; [lia|]. cbn [repeat]. rewrite repeat_cons, app_assoc. apply last_last. }
  rewrite pkcs7_unpad_ne; [|lia|destruct n; [lia|]; destruct d; discriminate].
  rewrite Hlast, app_length, repeat_length, Hal. replace (N.to_nat x) with n by (symmetry; apply Nat2N.id).
  cbn [Nat.eqb negb].
  destruct (Nat.eqb_spec n 0) as [H0|_]; [lia|].
  destruct (Nat.ltb_spec bs n) as [Hlt|_]; [lia|]. cbn [orb].
  replace (length d + n - n)%nat with (length d) by lia. rewrite skipn_app_len, firstn_app_len.
  replace (forallb (N.eqb x) (repeat x n)) with true; [reflexivity|].
  symmetry. apply forallb_forall. intros y Hy. apply repeat_spec in Hy. subst y. apply N.eqb_refl.
Qed.

(* For every block size 1..255 (the filler byte must fit a byte), with no hypothesis on the data. *)
Theorem unpad_pad_gen : forall bs d, (1 <= bs <= 255)%nat ->
  pkcs7_unpad bs (pkcs7_pad bs d) = Some d.
Proof.
  intros bs d [Hbs1 Hbs2]. destruct (padlen_range bs (length d) Hbs1) as [Hn _].
  unfold pkcs7_pad, pad_byte. rewrite N.mod_small by lia.
  apply unpad_intro; [exact Hn | apply padlen_aligned; exact Hbs1].
Qed.

(* the case the library meets: the block sizes of DES3 and AES, byte-valued data *)
Theorem unpad_pad : forall bs d, (bs = 8 \/ bs = 16)%nat -> Forall (fun x => (x < 256)%N) d ->
  pkcs7_unpad bs (pkcs7_pad bs d) = Some d.
Proof. intros bs d Hbs _. apply unpad_pad_gen. lia. Qed.

(* The acceptance rule of RFC5652Unpad lets through ONLY canonical paddings: whatever it accepts is
   the RFC5652Pad image of what it returns (block sizes 1..255).  No hypothesis on the bytes of p:
   the pad byte is <= bs <= 255 by check 3. *)
Theorem unpad_sound : forall bs p d, (bs <= 255)%nat ->
  pkcs7_unpad bs p = Some d -> p = pkcs7_pad bs d.
Proof.
  intros bs p d Hbs H. destruct (unpad_inv bs p d H) as (n & Hn & Hm & ->).
  rewrite app_length, repeat_length in Hm.
  unfold pkcs7_pad. rewrite (padlen_unique bs (length d) n Hn Hm).
  unfold pad_byte. rewrite N.mod_small by lia. reflexivity.
Qed.

Corollary unpad_iff_pad : forall bs p d, (1 <= bs <= 255)%nat ->
  pkcs7_unpad bs p = Some d <-> p = pkcs7_pad bs d.
Proof.
  intros bs p d Hbs. split.
  - apply unpad_sound. lia.
  - intros ->. apply unpad_pad_gen. exact Hbs.
Qed.

Lemma unpad_empty : forall bs, pkcs7_unpad bs [] = None.
Proof. intros [|bs']; [reflexivity|]. unfold pkcs7_unpad. rewrite Nat.mod_0_l by lia. reflexivity. Qed.

Lemma pkcs7_pad_app_aligned : forall bs q r k, (1 <= bs)%nat -> length q = (k * bs)%nat ->
  pkcs7_pad bs (q ++ r) = q ++ pkcs7_pad bs r.
Proof.
  intros bs q r k Hbs Hq. unfold pkcs7_pad.
  rewrite app_length, Hq, padlen_mod_add by exact Hbs.
  now rewrite app_assoc.
Qed.

Lemma pkcs7_unpad_app_block : forall bs q blk k, (1 <= bs)%nat ->
  length q = (k * bs)%nat -> length blk = bs ->
  pkcs7_unpad bs (q ++ blk) = option_map (app q) (pkcs7_unpad bs blk).
Proof.
  intros bs q blk k Hbs Hq Hblk.
  assert (Hbne : blk <> []) by (destruct blk; [simpl in Hblk; lia | discriminate]).
  assert (Hqne : q ++ blk <> []).
  { intros He. apply app_eq_nil in He. destruct He as [_ He]. contradiction. }
  rewrite (pkcs7_unpad_ne bs (q ++ blk)) by assumption.
  rewrite (pkcs7_unpad_ne bs blk) by assumption.
  rewrite last_app_ne by exact Hbne.
  rewrite app_length, Hq, Hblk.
  replace (k * bs + bs)%nat with ((1 + k) * bs)%nat by lia.
  rewrite Nat.mod_mul by lia. rewrite Nat.mod_same by lia. cbn [Nat.eqb negb].
  set (pb := last blk 0%N). set (n := N.to_nat pb).
  destruct (Nat.eqb_spec n 0) as [H0|H0]; cbn [orb]; [reflexivity|].
  destruct (Nat.ltb_spec bs n) as [Hlt|Hle]; [reflexivity|].
  rewrite skipn_app, firstn_app, Hq.
  rewrite skipn_all2 by lia. rewrite firstn_all2 by lia.
  replace ((1 + k) * bs - n - k * bs)%nat with (bs - n)%nat by lia.
  cbn [app].
  destruct (forallb (N.eqb pb) (skipn (bs - n) blk)); reflexivity.
Qed.

Lemma rfc3394_pad_shape : forall d,
  exists z, (z < 8)%nat /\ rfc3394_pad d = d ++ repeat 0%N z /\ ((length d + z) mod 8 = 0)%nat.
Proof.
  intros d. unfold rfc3394_pad.
  destruct (Nat.eqb_spec (length d mod 8) 0) as [H0|H0].
  - exists 0%nat. split; [lia|]. split; [now rewrite app_nil_r|]. now rewrite Nat.add_0_r.
  - exists (8 - length d mod 8)%nat. split; [lia|]. split; [reflexivity|].
    apply fill_aligned. lia.
Qed.

Theorem rfc3394_pad_length : forall d,
  (length (rfc3394_pad d) mod 8 = 0)%nat /\ (length d <= length (rfc3394_pad d) < length d + 8)%nat.
Proof.
  intros d. destruct (rfc3394_pad_shape d) as [z [Hz [-> Hal]]].
  rewrite app_length, repeat_length. split; [exact Hal | lia].
Qed.

Theorem rfc3394_pad_prefix : forall d, firstn (length d) (rfc3394_pad d) = d.
Proof. intros d. destruct (rfc3394_pad_shape d) as [z [_ [-> _]]]. apply firstn_app_len. Qed.

Theorem rfc3394_pad_aligned_id : forall d, (length d mod 8 = 0)%nat -> rfc3394_pad d = d.
Proof. intros d H. unfold rfc3394_pad. now rewrite H. Qed.

Theorem rfc3394_pad_idempotent : forall d, rfc3394_pad (rfc3394_pad d) = rfc3394_pad d.
Proof. intros d. apply rfc3394_pad_aligned_id. apply rfc3394_pad_length. Qed.

Lemma parity_sweep : forallb parity_check all_bytes = true.
Proof. vm_compute. reflexivity. Qed.

Lemma in_all_bytes : forall b, (b < 256)%N -> In b all_bytes.
Proof.
  intros b Hb. unfold all_bytes. apply in_map_iff. exists (N.to_nat b).
  split; [apply N2Nat.id|]. apply in_seq. lia.
Qed.

Lemma parity_check_all : forall b, (b < 256)%N ->
  N.odd (popcount (odd_parity_byte b)) = true /\ (b / 2 = odd_parity_byte b / 2)%N /\
  (odd_parity_byte b < 256)%N /\ nth (N.to_nat b) odd_parity_table 0%N = odd_parity_byte b.
Proof.
  intros b Hb. pose proof parity_sweep as H. rewrite forallb_forall in H.
  specialize (H b (in_all_bytes b Hb)). unfold parity_check in H.
  repeat (apply andb_true_iff in H; destruct H as [H ?]).
  repeat split; [exact H|apply N.eqb_eq|apply N.ltb_lt|apply N.eqb_eq]; assumption.
Qed.

Theorem odd_parity_byte_spec : forall b, (b < 256)%N ->
  N.odd (popcount (odd_parity_byte b)) = true /\ (b / 2 = odd_parity_byte b / 2)%N.
Proof. intros b Hb. destruct (parity_check_all b Hb) as (H1 & H2 & _). split; assumption. Qed.

Theorem odd_parity_byte_range : forall b, (b < 256)%N -> (odd_parity_byte b < 256)%N.
Proof. intros b Hb. apply (parity_check_all b Hb). Qed.

(* the arithmetic definition is the table of crypto/odd.h *)
Theorem odd_parity_table_eq : forall b, (b < 256)%N ->
  nth (N.to_nat b) odd_parity_table 0%N = odd_parity_byte b.
Proof. intros b Hb. apply (parity_check_all b Hb). Qed.

Lemma odd_parity_table_length : length odd_parity_table = 256%nat.
Proof. reflexivity. Qed.

Theorem odd_parity_by_table_eq : forall k, Forall (fun x => (x < 256)%N) k ->
  odd_parity_by_table k = odd_parity k.
Proof.
  intros k Hk. unfold odd_parity_by_table, odd_parity. apply map_ext_in.
  intros b Hb. rewrite Forall_forall in Hk. apply odd_parity_table_eq. now apply Hk.
Qed.

Theorem odd_parity_byte_idempotent : forall b, (b < 256)%N ->
  odd_parity_byte (odd_parity_byte b) = odd_parity_byte b.
Proof.
  intros b Hb. destruct (odd_parity_byte_spec b Hb) as [_ H].
  unfold odd_parity_byte at 1 3. cbv zeta. now rewrite <- H.
Qed.

Theorem odd_parity_length : forall k, length (odd_parity k) = length k.
Proof. intros k. apply map_length. Qed.

Theorem odd_parity_spec : forall k, Forall (fun x => (x < 256)%N) k ->
  Forall (fun y => N.odd (popcount y) = true /\ (y < 256)%N) (odd_parity k)
  /\ map (fun x => (x / 2)%N) (odd_parity k) = map (fun x => (x / 2)%N) k.
Proof.
  intros k Hk. induction Hk as [|x k Hx Hk [IH1 IH2]]; simpl.
  - split; constructor.
  - destruct (odd_parity_byte_spec x Hx) as [Ho Hh]. split.
    + constructor; [split; [exact Ho | now apply odd_parity_byte_range] | exact IH1].
    + now rewrite IH2, <- Hh.
Qed.

Theorem derive_cut_some : forall n s v, derive_cut n s = Some v ->
  (n <= length s)%nat /\ length v = n /\ v = firstn n s /\ exists t, s = v ++ t.
Proof.
  intros n s v H. unfold derive_cut in H.
  destruct (Nat.ltb_spec (length s) n) as [Hlt|Hle]; [discriminate|].
  injection H as H. subst v. split; [exact Hle|].
  split; [rewrite firstn_length; lia|]. split; [reflexivity|].
  exists (skipn n s). symmetry. apply firstn_skipn.
Qed.

Theorem derive_value_length : forall des n s v, derive_value des n s = Some v -> length v = n.
Proof.
  intros des n s v H. unfold derive_value in H.
  destruct (derive_cut n s) as [w|] eqn:Hc; [|discriminate].
  injection H as H. subst v. destruct (derive_cut_some n s w Hc) as [_ [Hl _]].
  destruct des; [now rewrite odd_parity_length | exact Hl].
Qed.

Theorem derive_value_des_parity : forall n s v, Forall (fun x => (x < 256)%N) s ->
  derive_value true n s = Some v ->
  Forall (fun y => N.odd (popcount y) = true /\ (y < 256)%N) v
  /\ map (fun x => (x / 2)%N) v = map (fun x => (x / 2)%N) (firstn n s).
Proof.
  intros n s v Hs H. unfold derive_value in H.
  destruct (derive_cut n s) as [w|] eqn:Hc; [|discriminate].
  injection H as H. subst v. destruct (derive_cut_some n s w Hc) as [_ [_ [Hw _]]].
  subst w. apply odd_parity_spec.
  rewrite <- (firstn_skipn n s) in Hs. apply Forall_app in Hs. apply Hs.
Qed.

Print Assumptions unpad_pad_gen.
Print Assumptions unpad_pad.
Print Assumptions unpad_sound.
Print Assumptions pad_length.
Print Assumptions pkcs7_unpad_app_block.
Print Assumptions rfc3394_pad_length.
Print Assumptions rfc3394_pad_prefix.
Print Assumptions odd_parity_byte_spec.
Print Assumptions odd_parity_table_eq.
Print Assumptions derive_value_des_parity.
