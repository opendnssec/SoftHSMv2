(* Crypto/ModesFacts.v — proofs about Crypto/Modes.v: every way of cutting a message into parts
   gives the one-shot result (ECB, CBC, CBC-PAD / ECB-PAD; encryption and decryption), decryption
   inverts encryption, SoftHSM's own padding around an unpadded CBC operation (WrapKeySym /
   UnwrapKeySym) equals the cipher's padded mode, and the generic fold lemma for digest / MAC
   style updates.  The block cipher is a Section variable with explicit hypotheses. *)
From Coq Require Import List NArith Arith Lia.
From SoftHSM Require Import ListFacts Defs Pad PadFacts Modes.
Import ListNotations.

(* digest / MAC style: hashUpdate, signUpdate, verifyUpdate ... *)
Theorem fold_update_concat :
  forall (S : Type) (f : S -> bytes -> S),
    (forall s a b, f (f s a) b = f s (a ++ b)) ->
    (forall s, f s [] = s) ->
    forall (parts : list bytes) (s : S), fold_left f parts s = f s (concat parts).
Proof.
  intros S f Happ Hnil parts. induction parts as [|p ps IH]; intros s; simpl.
  - symmetry. apply Hnil.
  - rewrite IH. apply Happ.
Qed.

(* cipher style: an update also produces output *)
Theorem updates_concat :
  forall (upd : state -> bytes -> state * bytes),
    (forall s a b, upd s (a ++ b) =
                   (fst (upd (fst (upd s a)) b), snd (upd s a) ++ snd (upd (fst (upd s a)) b))) ->
    (forall s, upd s [] = (s, [])) ->
    forall (parts : list bytes) (s : state), updates upd s parts = upd s (concat parts).
Proof.
  intros upd Happ Hnil parts. induction parts as [|p ps IH]; intros s; simpl.
  - symmetry. apply Hnil.
  - rewrite IH. symmetry. apply Happ.
Qed.

Definition all_len (bs : nat) (bl : list bytes) : Prop := Forall (fun b => length b = bs) bl.

Lemma concat_length_blocks : forall bs bl, all_len bs bl -> length (concat bl) = (length bl * bs)%nat.
Proof.
  intros bs bl H. induction H as [|b bl Hb Hbl IH]; [reflexivity|].
  simpl. rewrite app_length, IH, Hb. reflexivity.
Qed.

Lemma concat_removelast_last : forall (l : list bytes), concat (removelast l) ++ last l [] = concat l.
Proof.
  intros [|x l]; [reflexivity|]. rewrite <- (app_nil_r (last (x :: l) [])).
  change (last (x :: l) [] ++ []) with (concat [last (x :: l) []]).
  rewrite <- concat_app, <- app_removelast_last by discriminate. reflexivity.
Qed.

Lemma xor_bytes_length : forall a b, length (xor_bytes a b) = Nat.min (length a) (length b).
Proof.
  induction a as [|x a IH]; intros b; [reflexivity|]. destruct b as [|y b]; [reflexivity|].
  simpl. now rewrite IH.
Qed.

Lemma xor_bytes_block : forall bs a b, length a = bs -> length b = bs -> length (xor_bytes a b) = bs.
Proof. intros bs a b Ha Hb. rewrite xor_bytes_length, Ha, Hb. apply Nat.min_id. Qed.

Lemma xor_bytes_cancel : forall a b, (length a <= length b)%nat -> xor_bytes (xor_bytes a b) b = a.
Proof.
  induction a as [|x a IH]; intros b H; [reflexivity|]. destruct b as [|y b]; [simpl in H; lia|].
  simpl in *. rewrite IH by lia. f_equal.
  rewrite N.lxor_assoc, N.lxor_nilpotent. apply N.lxor_0_r.
Qed.

Section Chunk.
  Variable bs : nat.
  Hypothesis Hbs : (1 <= bs)%nat.

  Definition splits (l : bytes) (B : list bytes) (r : bytes) : Prop :=
    l = concat B ++ r /\ all_len bs B /\ (length r < bs)%nat.

  Lemma chunk_fuel_spec : forall fuel l, (length l <= fuel)%nat ->
    splits l (fst (chunk_fuel fuel bs l)) (snd (chunk_fuel fuel bs l)).
  Proof.
    induction fuel as [|f IH]; intros l Hl.
    - destruct l; [|simpl in Hl; lia]. repeat split; [constructor | simpl; lia].
    - cbn [chunk_fuel]. destruct (Nat.leb_spec bs (length l)) as [Hle|Hlt].
      + assert (Hsk : (length (skipn bs l) <= f)%nat) by (rewrite skipn_length; lia).
        destruct (IH (skipn bs l) Hsk) as [H1 [H2 H3]]. cbn [fst snd]. repeat split.
        * cbn [concat]. rewrite <- app_assoc, <- H1. symmetry. apply firstn_skipn.
        * constructor; [|exact H2]. rewrite firstn_length. lia.
        * exact H3.
      + repeat split; [constructor | exact Hlt].
  Qed.

  Lemma chunk_fuel_unique : forall l B r, splits l B r ->
    forall fuel, (length l <= fuel)%nat -> chunk_fuel fuel bs l = (B, r).
  Proof.
    intros l B r (-> & HB & Hr). induction HB as [|b B Hb HB IH]; intros fuel Hf.
    - cbn [concat app]. destruct fuel as [|f]; [reflexivity|]. cbn [chunk_fuel].
      destruct (Nat.leb_spec bs (length r)); [lia | reflexivity].
    - cbn [concat] in *. rewrite <- app_assoc in *. rewrite app_length in Hf.
      destruct fuel as [|f]; [lia|]. cbn [chunk_fuel].
      destruct (Nat.leb_spec bs (length (b ++ concat B ++ r))) as [_|Hlt];
        [|rewrite app_length in Hlt; lia].
      rewrite <- Hb, firstn_app_len, skipn_app_len, Hb, IH by lia. reflexivity.
  Qed.

  Lemma chunk_spec : forall l, splits l (fst (chunk bs l)) (snd (chunk bs l)).
  Proof. intros l. apply chunk_fuel_spec. lia. Qed.

  Lemma chunk_unique : forall l B r, splits l B r -> chunk bs l = (B, r).
  Proof. intros l B r H. apply (chunk_fuel_unique l B r H). lia. Qed.

  Lemma chunk_concat : forall bl, all_len bs bl -> chunk bs (concat bl) = (bl, []).
  Proof.
    intros bl Hbl. apply chunk_unique. split; [symmetry; apply app_nil_r|]. split; [exact Hbl | simpl; lia].
  Qed.

  Lemma chunk_nil : chunk bs [] = ([], []).
  Proof. reflexivity. Qed.

  Lemma splits_app : forall l1 B1 r1 l2 B2 r2,
    splits l1 B1 r1 -> splits (r1 ++ l2) B2 r2 -> splits (l1 ++ l2) (B1 ++ B2) r2.
  Proof.
    intros l1 B1 r1 l2 B2 r2 (-> & HB1 & _) (H2 & HB2 & Hr2).
    split; [|split; [apply Forall_app; split; assumption | exact Hr2]].
    rewrite concat_app, <- !app_assoc, <- H2. reflexivity.
  Qed.

  Lemma chunk_app : forall l1 l2,
    chunk bs (l1 ++ l2) =
    (fst (chunk bs l1) ++ fst (chunk bs (snd (chunk bs l1) ++ l2)),
     snd (chunk bs (snd (chunk bs l1) ++ l2))).
  Proof.
    intros l1 l2. exact (chunk_unique _ _ _ (splits_app _ _ _ _ _ _ (chunk_spec l1) (chunk_spec _))).
  Qed.

  Lemma length_mod_chunk : forall l, (length l mod bs = length (snd (chunk bs l)))%nat.
  Proof.
    intros l. destruct (chunk_spec l) as [H1 [HB HR]].
    rewrite H1 at 1. rewrite app_length, (concat_length_blocks bs) by exact HB.
    rewrite Nat.add_comm, Nat.mod_add by lia. apply Nat.mod_small. exact HR.
  Qed.

  Lemma chunk_aligned : forall l, (length l mod bs = 0)%nat -> concat (fst (chunk bs l)) = l.
  Proof.
    intros l H. rewrite length_mod_chunk in H. destruct (chunk_spec l) as [H1 _].
    destruct (snd (chunk bs l)); [|discriminate H]. rewrite app_nil_r in H1. symmetry. exact H1.
  Qed.

  Lemma blocks_of_pad : forall msg,
    blocks_of bs (pkcs7_pad bs msg) =
    blocks_of bs msg ++ blocks_of bs (pkcs7_pad bs (snd (chunk bs msg))).
  Proof.
    intros msg. unfold blocks_of.
    destruct (chunk_spec msg) as [H1 [HB _]].
    destruct (chunk bs msg) as [B r]. cbn [fst snd] in *.
    rewrite H1.
    rewrite (pkcs7_pad_app_aligned bs (concat B) r (length B) Hbs (concat_length_blocks bs B HB)).
    rewrite chunk_app, chunk_concat by exact HB. reflexivity.
  Qed.
End Chunk.

Lemma run_app : forall step b1 iv b2,
  run step iv (b1 ++ b2) =
  (fst (run step (fst (run step iv b1)) b2),
   snd (run step iv b1) ++ snd (run step (fst (run step iv b1)) b2)).
Proof.
  intros step b1. induction b1 as [|b b1 IH]; intros iv b2.
  - cbn [app run fst snd]. apply surjective_pairing.
  - cbn [app run fst snd]. rewrite IH. reflexivity.
Qed.

Lemma run_ne : forall step bl iv, bl <> [] -> snd (run step iv bl) <> [].
Proof. intros step [|b bl] iv H; [contradiction | discriminate]. Qed.

(* Facts that hold block by block while a condition [I] on the chaining value is handed on: that all output
   blocks are whole, and that a second loop undoes the first. *)
Lemma run_all_len : forall bs step (I : bytes -> Prop),
  (forall iv b, I iv -> length b = bs -> I (fst (step iv b)) /\ length (snd (step iv b)) = bs) ->
  forall bl iv, I iv -> all_len bs bl -> all_len bs (snd (run step iv bl)).
Proof.
  intros bs step I Hstep bl. induction bl as [|b bl IH]; intros iv Hiv Hbl; cbn [run snd]; [constructor|].
  pose proof (Forall_inv_tail Hbl) as Hbl'. destruct (Hstep iv b Hiv (Forall_inv Hbl)) as [Hiv' Hlen].
  constructor; [exact Hlen | exact (IH _ Hiv' Hbl')].
Qed.

Lemma run_inverse : forall bs estep dstep (I : bytes -> Prop),
  (forall iv b, I iv -> length b = bs ->
     I (fst (estep iv b)) /\ dstep iv (snd (estep iv b)) = (fst (estep iv b), b)) ->
  forall bl iv, I iv -> all_len bs bl -> snd (run dstep iv (snd (run estep iv bl))) = bl.
Proof.
  intros bs estep dstep I Hstep bl. induction bl as [|b bl IH]; intros iv Hiv Hbl; [reflexivity|].
  pose proof (Forall_inv_tail Hbl) as Hbl'. destruct (Hstep iv b Hiv (Forall_inv Hbl)) as [Hiv' Hd].
  cbn [run snd]. rewrite Hd. cbn [fst snd]. rewrite (IH _ Hiv' Hbl'). reflexivity.
Qed.

Section Facts.
  Variable bs : nat.
  Variables E D : bytes -> bytes.
  Hypothesis Hbs : (1 <= bs)%nat.

  Local Notation encU := (enc_update bs E).
  Local Notation decU := (dec_update bs D).
  Local Notation decF := (dec_final bs).
  Local Notation eblk := (enc_block E).
  Local Notation dblk := (dec_block D).

  (* ECB hands the chaining value on untouched; only CBC uses it, and needs it one block long *)
  Definition iv_ok (m : mode) (iv : bytes) : Prop := m = CBC -> length iv = bs.

  Lemma run_enc_spec : forall m bl iv, snd (run (eblk m) iv bl) = mode_enc E m iv bl.
  Proof.
    intros m bl. induction bl as [|b bl IH]; intros iv.
    - destruct m; reflexivity.
    - cbn [run snd]. rewrite IH. destruct m; reflexivity.
  Qed.

  Lemma run_dec_spec : forall m cl iv, snd (run (dblk m) iv cl) = mode_dec D m iv cl.
  Proof.
    intros m cl. induction cl as [|c cl IH]; intros iv.
    - destruct m; reflexivity.
    - cbn [run snd]. rewrite IH. destruct m; reflexivity.
  Qed.

  Lemma enc_update_nil : forall s, encU s [] = (s, []).
  Proof. reflexivity. Qed.

  Lemma enc_update_app : forall s a b,
    encU s (a ++ b) = (fst (encU (fst (encU s a)) b), snd (encU s a) ++ snd (encU (fst (encU s a)) b)).
  Proof.
    intros s [|x a] b; [apply surjective_pairing|].
    destruct b as [|y b].
    { rewrite app_nil_r, enc_update_nil. cbn [fst snd]. rewrite app_nil_r. apply surjective_pairing. }
    unfold enc_update. cbn [app fst snd st_mode st_pad st_iv st_buf st_held].
    change (x :: a ++ y :: b) with ((x :: a) ++ y :: b). rewrite app_assoc, (chunk_app bs Hbs). cbn [fst snd].
    rewrite run_app. cbn [fst snd]. rewrite concat_app. reflexivity.
  Qed.

  Lemma enc_updates_concat : forall parts s, updates encU s parts = encU s (concat parts).
  Proof. apply updates_concat; [apply enc_update_app | apply enc_update_nil]. Qed.

  Theorem enc_multi_eq_single : forall s parts, enc_multi bs E s parts = enc_single bs E s (concat parts).
  Proof.
    intros s parts. unfold enc_single, enc_multi.
    rewrite !enc_updates_concat. cbn [concat]. rewrite app_nil_r. reflexivity.
  Qed.

  Lemma enc_update_init : forall m pad iv msg,
    encU (init m pad iv) msg =
    (mkState m pad (fst (run (eblk m) iv (blocks_of bs msg))) (snd (chunk bs msg)) None,
     concat (snd (run (eblk m) iv (blocks_of bs msg)))).
  Proof.
    intros m pad iv msg. destruct msg; reflexivity.
  Qed.

  Theorem enc_single_spec : forall m pad iv msg,
    enc_single bs E (init m pad iv) msg = encrypt_all bs E m pad iv msg.
  Proof.
    intros m pad iv msg. unfold enc_single, enc_multi. cbn [updates fst snd].
    rewrite enc_update_init. cbn [fst snd]. rewrite app_nil_r.
    unfold enc_final, encrypt_all. cbn [st_pad st_mode st_iv st_buf].
    destruct pad.
    - cbn [option_map]. f_equal.
      rewrite <- run_enc_spec, (blocks_of_pad bs Hbs), run_app. cbn [snd].
      rewrite concat_app. reflexivity.
    - rewrite (length_mod_chunk bs Hbs).
      destruct (snd (chunk bs msg)) as [|x r]; cbn [is_nil length Nat.eqb option_map].
      + rewrite app_nil_r, run_enc_spec. reflexivity.
      + reflexivity.
  Qed.

  (* C10, encryption in ECB, CBC, ECB-PAD, CBC-PAD: for every split of the message into parts
     (empty parts allowed), the concatenation of all C_EncryptUpdate outputs and the
     C_EncryptFinal output is the one-shot result; both fail together in the unpadded modes when
     the total length is not a multiple of the block size. *)
  Theorem multipart_eq_single_enc : forall m pad iv parts,
    enc_multi bs E (init m pad iv) parts = encrypt_all bs E m pad iv (concat parts).
  Proof. intros. rewrite enc_multi_eq_single. apply enc_single_spec. Qed.

  (* getBufferSize() after feeding the parts: the bytes of the incomplete block *)
  Lemma enc_buffer_size : forall m pad iv parts,
    buffer_size (fst (updates encU (init m pad iv) parts)) = (length (concat parts) mod bs)%nat.
  Proof.
    intros. rewrite enc_updates_concat, enc_update_init. cbn [fst]. unfold buffer_size.
    cbn [st_buf st_held]. rewrite (length_mod_chunk bs Hbs). lia.
  Qed.

  Lemma dec_update_nil : forall s, decU s [] = (s, []).
  Proof. reflexivity. Qed.

  (* a padded DecryptUpdate that has decrypted the blocks [O] and leaves [rest] in the buffer: on a block boundary
     the last block is held back; (what is held, what is given out) *)
  Definition hold (O : list bytes) (rest : bytes) : option bytes * list bytes :=
    if is_nil rest then (Some (last O []), removelast O) else (None, O).
  Definition flush (h : option bytes) : bytes := match h with Some b => b | None => [] end.

  Lemma hold_flush : forall O rest, concat (snd (hold O rest)) ++ flush (fst (hold O rest)) = concat O.
  Proof.
    intros O rest. unfold hold. destruct (is_nil rest); cbn [fst snd flush];
      [apply concat_removelast_last | apply app_nil_r].
  Qed.

  Lemma hold_app : forall O1 O2 rest, (rest = [] -> O2 <> []) ->
    hold (O1 ++ O2) rest = (fst (hold O2 rest), O1 ++ snd (hold O2 rest)).
  Proof.
    intros O1 O2 [|x rest] H; [|reflexivity]. unfold hold. cbn [is_nil fst snd].
    rewrite removelast_app, last_app_ne by auto. reflexivity.
  Qed.

  Lemma dec_update_ne : forall s d, d <> [] ->
    decU s d =
    let c := chunk bs (st_buf s ++ d) in
    let r := run (dblk (st_mode s)) (st_iv s) (fst c) in
    (mkState (st_mode s) (st_pad s) (fst r) (snd c)
             (if st_pad s then fst (hold (snd r) (snd c)) else st_held s),
     if st_pad s then flush (st_held s) ++ concat (snd (hold (snd r) (snd c))) else concat (snd r)).
  Proof.
    intros s d Hd. destruct d as [|x d]; [contradiction|]. unfold dec_update, hold. cbv zeta.
    destruct (st_pad s); [|reflexivity]. destruct (snd (chunk bs (st_buf s ++ x :: d))); reflexivity.
  Qed.

  Lemma chunk_blocks_ne : forall r b, b <> [] -> snd (chunk bs (r ++ b)) = [] -> fst (chunk bs (r ++ b)) <> [].
  Proof.
    intros r b Hb Hr He. destruct (chunk_spec bs Hbs (r ++ b)) as [H1 _].
    rewrite Hr, He in H1. cbn in H1. apply app_eq_nil in H1. destruct H1 as [_ H1]. contradiction.
  Qed.

  Lemma dec_update_app : forall s a b,
    decU s (a ++ b) = (fst (decU (fst (decU s a)) b), snd (decU s a) ++ snd (decU (fst (decU s a)) b)).
  Proof.
    intros s a b.
    destruct (list_eq_dec N.eq_dec a []) as [->|Ha]; [apply surjective_pairing|].
    destruct (list_eq_dec N.eq_dec b []) as [->|Hb].
    { rewrite app_nil_r, dec_update_nil. cbn [fst snd]. rewrite app_nil_r. apply surjective_pairing. }
    assert (Hab : a ++ b <> []).
    { intros He. apply app_eq_nil in He. destruct He as [He _]. contradiction. }
    rewrite (dec_update_ne s (a ++ b) Hab), (dec_update_ne s a Ha). cbv zeta. cbn [fst snd].
    rewrite (dec_update_ne _ b Hb). cbv zeta. cbn [fst snd st_mode st_pad st_iv st_buf st_held].
    rewrite app_assoc, (chunk_app bs Hbs). cbn [fst snd]. rewrite run_app. cbn [fst snd].
    destruct (st_pad s); [|rewrite concat_app; reflexivity].
    (* with padding: what the first part held back comes out first with the second *)
    rewrite hold_app by (intros Hr; apply run_ne, chunk_blocks_ne; assumption). cbn [fst snd].
    rewrite concat_app, <- !app_assoc, (app_assoc (concat (snd (hold _ _))) (flush _)), hold_flush.
    reflexivity.
  Qed.

  Lemma dec_updates_concat : forall parts s, updates decU s parts = decU s (concat parts).
  Proof. apply updates_concat; [apply dec_update_app | apply dec_update_nil]. Qed.

  (* the hold-back, concretely: in a padded mode a first update with exactly one ciphertext block
     gives NO output; the decrypted block waits in the state and C_DecryptFinal returns it unpadded *)
  Lemma dec_update_one_block_held : forall m iv c, length c = bs ->
    decU (init m true iv) c =
      (mkState m true (fst (dblk m iv c)) [] (Some (snd (dblk m iv c))), [])
    /\ decF (fst (decU (init m true iv) c)) = pkcs7_unpad bs (snd (dblk m iv c)).
  Proof.
    intros m iv c Hc.
    assert (Hch : chunk bs c = ([c], [])).
    { rewrite <- (app_nil_r c) at 1. apply (chunk_concat bs Hbs [c]). constructor; [exact Hc | constructor]. }
    assert (Hu : decU (init m true iv) c =
                 (mkState m true (fst (dblk m iv c)) [] (Some (snd (dblk m iv c))), [])).
    { destruct c as [|x c]; [cbn in Hc; lia|]. unfold dec_update.
      cbn [init st_pad st_mode st_iv st_buf st_held app]. rewrite Hch. reflexivity. }
    split; [exact Hu|]. rewrite Hu. reflexivity.
  Qed.

  Theorem dec_multi_eq_single : forall s parts, dec_multi bs D s parts = dec_single bs D s (concat parts).
  Proof.
    intros s parts. unfold dec_single, dec_multi.
    rewrite !dec_updates_concat. cbn [concat]. rewrite app_nil_r. reflexivity.
  Qed.

  (* unpadded: no hypothesis on D at all *)
  Theorem dec_single_spec_nopad : forall m iv c,
    dec_single bs D (init m false iv) c = decrypt_all bs D m false iv c.
  Proof.
    intros m iv c. unfold dec_single, dec_multi. cbn [updates fst snd]. rewrite app_nil_r.
    unfold decrypt_all. rewrite (length_mod_chunk bs Hbs).
    destruct c as [|x c].
    - destruct m; reflexivity.
    - rewrite dec_update_ne by discriminate.
      cbn [init st_pad st_mode st_iv st_buf st_held fst snd app].
      unfold dec_final. cbn [st_pad st_buf].
      destruct (snd (chunk bs (x :: c))) as [|y r]; cbn [is_nil length Nat.eqb option_map].
      + rewrite app_nil_r, run_dec_spec. reflexivity.
      + reflexivity.
  Qed.

  Hypothesis D_len : forall b, length b = bs -> length (D b) = bs.

  Lemma dblk_len : forall m iv c, iv_ok m iv -> length c = bs ->
    iv_ok m (fst (dblk m iv c)) /\ length (snd (dblk m iv c)) = bs.
  Proof.
    intros [|] iv c Hiv Hc; cbn [dec_block fst snd].
    - split; [discriminate | apply D_len; exact Hc].
    - split; [intros _; exact Hc | apply xor_bytes_block; auto].
  Qed.

  (* padded: the held-back block is the one that pkcs7_unpad inspects *)
  Theorem dec_single_spec_pad : forall m iv c, (m = CBC -> length iv = bs) ->
    dec_single bs D (init m true iv) c = decrypt_all bs D m true iv c.
  Proof.
    intros m iv c Hiv. unfold dec_single, dec_multi. cbn [updates fst snd]. rewrite app_nil_r.
    unfold decrypt_all. rewrite (length_mod_chunk bs Hbs).
    destruct c as [|x c].
    - destruct m; cbn; rewrite unpad_empty; reflexivity.
    - rewrite dec_update_ne by discriminate.
      cbn [init st_pad st_mode st_iv st_buf st_held fst snd app].
      destruct (chunk_spec bs Hbs (x :: c)) as [H1 [HB _]].
      unfold blocks_of.
      destruct (snd (chunk bs (x :: c))) as [|y r] eqn:Hr; cbn [is_nil length Nat.eqb fst snd].
      + unfold dec_final. cbn [st_pad st_buf st_held]. rewrite <- run_dec_spec.
        set (O := snd (run (dblk m) iv (fst (chunk bs (x :: c))))).
        assert (HO : all_len bs O) by (apply (run_all_len bs _ _ (dblk_len m)); assumption).
        assert (HOne : O <> []) by (apply run_ne, (chunk_blocks_ne [] (x :: c)); [discriminate | exact Hr]).
        destruct (exists_last HOne) as (O' & h & HO'). rewrite HO' in *.
        apply Forall_app in HO. destruct HO as [HO Hh].
        unfold hold. cbn [is_nil fst snd flush app]. rewrite last_last, removelast_last, concat_app.
        cbn [concat]. rewrite app_nil_r. symmetry.
        apply (pkcs7_unpad_app_block bs _ _ (length O') Hbs (concat_length_blocks bs O' HO)).
        exact (Forall_inv Hh).
      + reflexivity.
  Qed.

  Theorem dec_single_spec : forall m pad iv c, (m = CBC -> length iv = bs) ->
    dec_single bs D (init m pad iv) c = decrypt_all bs D m pad iv c.
  Proof.
    intros m [] iv c Hiv; [apply dec_single_spec_pad; exact Hiv | apply dec_single_spec_nopad].
  Qed.

  (* C10, decryption in ECB, CBC, ECB-PAD, CBC-PAD, for every split of the ciphertext.  With
     padding the library keeps the last decrypted block back until C_DecryptFinal; the total
     output is nevertheless that of the one-shot operation (including every failure: total length
     not a multiple of the block size, empty input, bad padding). *)
  Theorem multipart_eq_single_dec : forall m pad iv parts, (m = CBC -> length iv = bs) ->
    dec_multi bs D (init m pad iv) parts = decrypt_all bs D m pad iv (concat parts).
  Proof. intros. rewrite dec_multi_eq_single. apply dec_single_spec. assumption. Qed.

  Theorem multipart_eq_single_dec_nopad : forall m iv parts,
    dec_multi bs D (init m false iv) parts = decrypt_all bs D m false iv (concat parts).
  Proof. intros. rewrite dec_multi_eq_single. apply dec_single_spec_nopad. Qed.

  Hypothesis E_len : forall b, length b = bs -> length (E b) = bs.
  Hypothesis DE : forall b, length b = bs -> D (E b) = b.

  Lemma eblk_step : forall m iv b, iv_ok m iv -> length b = bs ->
    iv_ok m (fst (eblk m iv b)) /\ length (snd (eblk m iv b)) = bs /\
    dblk m iv (snd (eblk m iv b)) = (fst (eblk m iv b), b).
  Proof.
    intros [|] iv b Hiv Hb; cbn [enc_block dec_block fst snd].
    - split; [discriminate|]. split; [apply E_len; exact Hb | rewrite DE by exact Hb; reflexivity].
    - assert (Hx : length (xor_bytes b iv) = bs) by (apply xor_bytes_block; auto).
      split; [intros _; apply E_len; exact Hx|]. split; [apply E_len; exact Hx|].
      rewrite DE, xor_bytes_cancel by (rewrite ?Hiv by reflexivity; lia). reflexivity.
  Qed.

  Lemma mode_enc_len : forall m bl iv, all_len bs bl -> iv_ok m iv -> all_len bs (mode_enc E m iv bl).
  Proof.
    intros m bl iv Hbl Hiv. rewrite <- run_enc_spec. apply (run_all_len bs _ (iv_ok m)); [|exact Hiv|exact Hbl].
    intros iv' b Hiv' Hb. destruct (eblk_step m iv' b Hiv' Hb) as (H1 & H2 & _). split; assumption.
  Qed.

  Lemma mode_dec_enc : forall m bl iv, all_len bs bl -> iv_ok m iv ->
    mode_dec D m iv (mode_enc E m iv bl) = bl.
  Proof.
    intros m bl iv Hbl Hiv. rewrite <- run_enc_spec, <- run_dec_spec.
    apply (run_inverse bs _ _ (iv_ok m)); [|exact Hiv|exact Hbl].
    intros iv' b Hiv' Hb. destruct (eblk_step m iv' b Hiv' Hb) as (H1 & _ & H3). split; assumption.
  Qed.

  Lemma decrypt_all_pad : forall m iv c,
    decrypt_all bs D m true iv c =
    match decrypt_all bs D m false iv c with Some p => pkcs7_unpad bs p | None => None end.
  Proof. intros m iv c. unfold decrypt_all. destruct (length c mod bs =? 0)%nat; reflexivity. Qed.

  Lemma decrypt_encrypt_blocks : forall m iv p, (length p mod bs = 0)%nat -> iv_ok m iv ->
    decrypt_all bs D m false iv (concat (mode_enc E m iv (blocks_of bs p))) = Some p.
  Proof.
    intros m iv p Hp Hiv.
    destruct (chunk_spec bs Hbs p) as [_ [HB _]].
    pose proof (mode_enc_len m (blocks_of bs p) iv HB Hiv) as HC.
    unfold decrypt_all.
    rewrite (concat_length_blocks bs _ HC), Nat.mod_mul by lia. cbn [Nat.eqb].
    unfold blocks_of at 1. rewrite (chunk_concat bs Hbs _ HC). cbn [fst].
    rewrite mode_dec_enc by assumption. f_equal. apply (chunk_aligned bs Hbs p Hp).
  Qed.

  Theorem roundtrip_nopad : forall m iv msg, (length msg mod bs = 0)%nat ->
    (m = CBC -> length iv = bs) ->
    exists c, encrypt_all bs E m false iv msg = Some c /\ decrypt_all bs D m false iv c = Some msg.
  Proof.
    intros m iv msg Hm Hiv. unfold encrypt_all. rewrite Hm. cbn [Nat.eqb].
    eexists. split; [reflexivity|]. apply decrypt_encrypt_blocks; assumption.
  Qed.

  (* padded modes: ANY message (block sizes up to 255 so that the pad byte fits) *)
  Theorem roundtrip_pad : forall m iv msg, (bs <= 255)%nat ->
    (m = CBC -> length iv = bs) ->
    exists c, encrypt_all bs E m true iv msg = Some c /\ decrypt_all bs D m true iv c = Some msg.
  Proof.
    intros m iv msg Hbs2 Hiv. unfold encrypt_all.
    eexists. split; [reflexivity|].
    rewrite decrypt_all_pad, (decrypt_encrypt_blocks m iv _ (proj1 (pad_length bs msg Hbs)) Hiv).
    apply unpad_pad_gen. lia.
  Qed.

  Theorem roundtrip : forall m pad iv msg,
    (pad = true -> (bs <= 255)%nat) ->
    (pad = false -> (length msg mod bs = 0)%nat) ->
    (m = CBC -> length iv = bs) ->
    exists c, encrypt_all bs E m pad iv msg = Some c /\ decrypt_all bs D m pad iv c = Some msg.
  Proof.
    intros m [] iv msg H1 H2 Hiv; [apply roundtrip_pad | apply roundtrip_nopad]; auto.
  Qed.

  (* the same through the state machines, with arbitrary splits on both sides *)
  Corollary roundtrip_multipart : forall m pad iv msg parts,
    (pad = true -> (bs <= 255)%nat) ->
    (pad = false -> (length msg mod bs = 0)%nat) ->
    (m = CBC -> length iv = bs) ->
    concat parts = msg ->
    exists c, enc_multi bs E (init m pad iv) parts = Some c /\
              forall cparts, concat cparts = c -> dec_multi bs D (init m pad iv) cparts = Some msg.
  Proof.
    intros m pad iv msg parts H1 H2 Hiv Hparts.
    destruct (roundtrip m pad iv msg H1 H2 Hiv) as [c [Hc Hd]].
    exists c. split.
    - rewrite multipart_eq_single_enc, Hparts. exact Hc.
    - intros cparts Hcp. rewrite multipart_eq_single_dec, Hcp by exact Hiv. exact Hd.
  Qed.

  (* SoftHSM pads with RFC5652Pad and runs CBC with the cipher's padding off; that is the padded
     CBC mode of the cipher *)
  Theorem wrap_cbc_pad_spec : forall iv keydata,
    wrap_cbc_pad bs E iv keydata = encrypt_all bs E CBC true iv keydata.
  Proof.
    intros iv keydata. unfold wrap_cbc_pad. rewrite enc_single_spec. unfold encrypt_all.
    destruct (pad_length bs keydata Hbs) as [Hal _]. rewrite Hal. reflexivity.
  Qed.

  Theorem unwrap_cbc_pad_spec : forall iv wrapped,
    unwrap_cbc_pad bs D iv wrapped = decrypt_all bs D CBC true iv wrapped.
  Proof.
    intros iv wrapped. unfold unwrap_cbc_pad. rewrite dec_single_spec_nopad, decrypt_all_pad. reflexivity.
  Qed.

  Theorem unwrap_wrap : forall iv keydata, (bs <= 255)%nat -> length iv = bs ->
    exists w, wrap_cbc_pad bs E iv keydata = Some w /\ unwrap_cbc_pad bs D iv w = Some keydata.
  Proof.
    intros iv keydata Hbs2 Hiv.
    destruct (roundtrip_pad CBC iv keydata Hbs2 (fun _ => Hiv)) as [w [Hw Hu]].
    exists w. now rewrite wrap_cbc_pad_spec, unwrap_cbc_pad_spec.
  Qed.

End Facts.

Print Assumptions fold_update_concat.
Print Assumptions multipart_eq_single_enc.
Print Assumptions multipart_eq_single_dec.
Print Assumptions multipart_eq_single_dec_nopad.
Print Assumptions roundtrip.
Print Assumptions roundtrip_multipart.
Print Assumptions wrap_cbc_pad_spec.
Print Assumptions unwrap_wrap.
