(* Crypto/OpIsCode.v — the operation model's symmetric and HMAC steps ARE the regenerated code (C12).

   gen/Gen_Ops.v holds Sym{En,De}crypt{,Update,Final}, MacSignFinal and MacSign (SoftHSM.cpp) translated whole,
   in effect mode: the result is (return code, effects), newest effect first; the effects LEN, RESET (the active
   operation ends) and WRITE are those of OpHonest.v.
   The theorems instantiate the function's inputs with the model's state (`*_env`): the cipher object's counters are
   the model's, the number of bytes the cipher hands back (`encryptedData.size()`, ...) and whether the EVP call succeeds are
   the model's EVP bookkeeping (OpModel.evp_*: that part is OpenSSL's behaviour, tied by the correspondence stream K-sizes
   only), and they conclude that the code returns exactly the model's return code, reports exactly the model's length,
   writes exactly the model's number of bytes and ends the operation exactly when the model does - in the machine
   arithmetic of the C++ (mod 2^64, `int nrOfBlocks`): the update and single-part functions for every input, the two
   final functions for every state whose byte counts are 64-bit values (the hypotheses of enc_final_is_code and
   dec_final_is_code). *)
From Coq Require Import List NArith Bool Lia.
From SoftHSM Require Import Gen_Const Gen_Ops OpModel OpFacts OpHonest.
Import ListNotations.
Local Open Scope N_scope.

Definition ended (a : active) : bool := match a with ANone => true | _ => false end.

Definition eff_of (r : ores) : list (N * N) :=
  (if ended (r_st r) then [(RESET, 0)] else []) ++
  (match r_len r with Some n => [(LEN, n)] | None => [] end) ++
  (if 0 <? r_written r then [(WRITE, r_written r)] else []).

Definition b2n (b : bool) : N := if b then 1 else 0.
Definition ptr_of (buf : obuf) : N := match buf with None => 0 | Some _ => 1 end.
Definition have_of (buf : obuf) : N := match buf with None => 0 | Some n => n end.

(* how each of the regenerated update and final functions ends, once the size to announce is settled: `pre` is the
   effect that goes with success, `fails` the verdict of the cipher's last call, `out` the bytes it hands back *)
Definition tail (pre : list (N * N)) (buf : obuf) (size : N) (fails : bool) (out : N) : N * list (N * N) :=
  if ptr_of buf =? 0 then (CKR_OK, [(LEN, size)]) else
  if have_of buf <? size then (CKR_BUFFER_TOO_SMALL, [(LEN, size)]) else
  if fails then (CKR_GENERAL_ERROR, [(RESET, 0)]) else
  if have_of buf <? out then (CKR_GENERAL_ERROR, [(RESET, 0)]) else
  if 0 <? out then (CKR_OK, pre ++ [(LEN, out); (WRITE, out)]) else (CKR_OK, pre ++ [(LEN, out)]).

Lemma b2n_z b : (b2n b =? 0) = negb b.
Proof. destruct b; reflexivity. Qed.

Lemma sub64_0 x : x < M64 -> sub64 x 0 = x.
Proof. intros H. rewrite sub64_small by (trivial; apply N.le_0_l). apply N.sub_0_r. Qed.

(* `(int) y` carried as a size_t: 18446744069414584320 = 2^64 - 2^32 extends the sign.  First as the translator prints
   it, then as it stands once `open_env` has removed the `let`, which is what `rewrite` meets. *)
Lemma i32_same y :
  (let i32 := y mod 4294967296 in if i32 <? 2147483648 then i32 else i32 + 18446744069414584320) = int32_as_size y.
Proof.
  unfold int32_as_size, M64. cbv zeta.
  assert (H : y mod 4294967296 < 4294967296) by (apply N.mod_lt; discriminate).
  revert H. generalize (y mod 4294967296). intros z H. destruct (z <? 2147483648); lia.
Qed.

Lemma i32_same' y :
  (if y mod 4294967296 <? 2147483648 then y mod 4294967296 else y mod 4294967296 + 18446744069414584320) = int32_as_size y.
Proof. exact (i32_same y). Qed.

Definition enc_update_env (o : symop) (len : N) (buf : obuf) : SymEncryptUpdate.env :=
  fold_right (fun f e => f e) SymEncryptUpdate.default
    [(SymEncryptUpdate.set_cipher_checkMaximumBytes (fun _ => 1));
     (SymEncryptUpdate.set_cipher_encryptUpdate_at1 (fun _ _ => 1));
     (SymEncryptUpdate.set_cipher_getBlockSize BS);
     (SymEncryptUpdate.set_cipher_getBufferSize (so_buf o));
     (SymEncryptUpdate.set_cipher_isBlockCipher (b2n (is_block (so_mode o))));
     (SymEncryptUpdate.set_deref_pulEncryptedDataLen (have_of buf));
     (SymEncryptUpdate.set_hv2_encryptedData_size (evp_enc_update_out o len));
     (SymEncryptUpdate.set_session_getAllowMultiPartOp 1);
     (SymEncryptUpdate.set_session_getSymmetricCryptoOp 1);
     (SymEncryptUpdate.set_ulDataLen len);
     (SymEncryptUpdate.set_pEncryptedData (ptr_of buf))].

Lemma update_is_code o len buf mx out :
  mx = announced (sym_update o len) -> out = (if so_enc o then evp_enc_update_out o len else evp_dec_update_out o len) ->
  tail [] buf mx false out = (r_rv (sym_update o len buf), eff_of (sym_update o len buf)).
Proof.
  intros -> ->. cbv beta iota zeta delta [tail announced sym_update]. cbn [r_len app].
  destruct buf as [have|]; cbn [ptr_of have_of N.eqb Pos.eqb]; [|reflexivity].
  destruct (have <? _); [reflexivity|]. destruct (have <? _); [reflexivity|].
  unfold eff_of; cbn [r_st r_len r_written ended app]. destruct (0 <? _); reflexivity.
Qed.

Theorem enc_update_is_code (o : symop) (len : N) (buf : obuf) :
  so_enc o = true ->
  let r := sym_update o len buf in
  SymEncryptUpdate.app (enc_update_env o len buf) = (r_rv r, eff_of r).
Proof.
  intros He. unfold enc_update_env. SymEncryptUpdate.open_env. cbn [N.eqb negb orb Pos.eqb].
  (* The code first settles the size to announce, then goes on as `tail` (update_is_code); what each case shows is
     that this size is the model's. *)
  destruct (is_block (so_mode o)) eqn:Hb; cbn [b2n N.eqb negb Pos.eqb].
  - (* block cipher: the whole blocks in input plus buffered bytes, counted in an `int` *)
    apply update_is_code; [|rewrite He; reflexivity].
    cbv beta iota zeta delta [announced sym_update]. cbn [r_len]. rewrite He, Hb.
    rewrite i32_same', sub64_0 by (apply N.mod_lt; discriminate). reflexivity.
  - (* stream cipher: input plus buffered bytes *)
    apply update_is_code; [|rewrite He; reflexivity].
    cbv beta iota zeta delta [announced sym_update]. cbn [r_len]. rewrite He, Hb. reflexivity.
Qed.

Definition dec_update_env (o : symop) (len : N) (buf : obuf) : SymDecryptUpdate.env :=
  fold_right (fun f e => f e) SymDecryptUpdate.default
    [(SymDecryptUpdate.set_cipher_checkMaximumBytes (fun _ => 1));
     (SymDecryptUpdate.set_cipher_decryptUpdate_at1 (fun _ _ => 1));
     (SymDecryptUpdate.set_cipher_getBlockSize BS);
     (SymDecryptUpdate.set_cipher_getBufferSize (so_buf o));
     (SymDecryptUpdate.set_cipher_getPaddingMode (b2n (so_pad o)));
     (SymDecryptUpdate.set_cipher_isBlockCipher (b2n (is_block (so_mode o))));
     (SymDecryptUpdate.set_deref_pDataLen (have_of buf));
     (SymDecryptUpdate.set_hv2_decryptedData_size (evp_dec_update_out o len));
     (SymDecryptUpdate.set_session_getAllowMultiPartOp 1);
     (SymDecryptUpdate.set_session_getSymmetricCryptoOp 1);
     (SymDecryptUpdate.set_ulEncryptedDataLen len);
     (SymDecryptUpdate.set_pData (ptr_of buf))].

Theorem dec_update_is_code (o : symop) (len : N) (buf : obuf) :
  so_enc o = false ->
  let r := sym_update o len buf in
  SymDecryptUpdate.app (dec_update_env o len buf) = (r_rv r, eff_of r).
Proof.
  intros He. unfold dec_update_env. SymDecryptUpdate.open_env. cbn [N.eqb negb orb Pos.eqb].
  fold M64. change ((len + so_buf o) mod M64) with (w64 (len + so_buf o)).
  (* As in enc_update_is_code: in each case the code has settled the size to announce and goes on as `tail`; the size
     is the model's.  A block cipher announces whole blocks of what it has, less what it holds back. *)
  destruct (is_block (so_mode o)) eqn:Hb; cbn [b2n N.eqb negb Pos.eqb].
  - destruct (so_pad o) eqn:Hp; cbn [b2n N.eqb negb Pos.eqb].
    + (* padding: one byte is held back, unless input and buffer are both empty; code and model make the same test *)
      destruct (w64 (len + so_buf o) <? 1) eqn:Ex.
      * (* nothing there *)
        apply update_is_code; [|rewrite He; reflexivity].
        cbv beta iota zeta delta [announced sym_update]. cbn [r_len]. rewrite He, Hb, Hp, Ex, i32_same'. reflexivity.
      * (* one byte held back *)
        apply update_is_code; [|rewrite He; reflexivity].
        cbv beta iota zeta delta [announced sym_update]. cbn [r_len]. rewrite He, Hb, Hp, Ex, i32_same'. reflexivity.
    + (* no padding: nothing is held back; the code's test `len + buffered < 0` never holds *)
      replace (w64 (len + so_buf o) <? 0) with false by (symmetry; apply N.ltb_ge, N.le_0_l).
      apply update_is_code; [|rewrite He; reflexivity].
      cbv beta iota zeta delta [announced sym_update]. cbn [r_len]. rewrite He, Hb, Hp, i32_same'. reflexivity.
  - (* stream cipher: input plus buffered bytes *)
    apply update_is_code; [|rewrite He; reflexivity].
    cbv beta iota zeta delta [announced sym_update]. cbn [r_len]. rewrite He, Hb. reflexivity.
Qed.

Definition enc_final_out (o : symop) : N := if is_block (so_mode o) then (if so_pad o then BS else 0) else so_tag o.

Definition enc_final_env (o : symop) (buf : obuf) : SymEncryptFinal.env :=
  fold_right (fun f e => f e) SymEncryptFinal.default
    [(SymEncryptFinal.set_cipher_encryptFinal_at1 (fun _ => 1));
     (SymEncryptFinal.set_cipher_getBlockSize BS);
     (SymEncryptFinal.set_cipher_getBufferSize (so_buf o));
     (SymEncryptFinal.set_cipher_getPaddingMode (b2n (so_pad o)));
     (SymEncryptFinal.set_cipher_getTagBytes (so_tag o));
     (SymEncryptFinal.set_cipher_isBlockCipher (b2n (is_block (so_mode o))));
     (SymEncryptFinal.set_deref_pulEncryptedDataLen (have_of buf));
     (SymEncryptFinal.set_hv2_encryptedFinal_size (enc_final_out o));
     (SymEncryptFinal.set_session_getAllowMultiPartOp 1);
     (SymEncryptFinal.set_session_getSymmetricCryptoOp 1);
     (SymEncryptFinal.set_pEncryptedData (ptr_of buf))].

(* the cipher's last block fits whenever `size` does *)
Lemma enc_final_tail o buf size out :
  out <= size ->
  tail [(RESET, 0)] buf size false out
  = let r := match buf with
             | None => mkR CKR_OK (Some size) 0 (ASym o)
             | Some have => if have <? size then mkR CKR_BUFFER_TOO_SMALL (Some size) 0 (ASym o) else mkR CKR_OK (Some out) out ANone
             end in (r_rv r, eff_of r).
Proof.
  intros Hle. unfold tail. destruct buf as [have|]; cbn [ptr_of have_of N.eqb Pos.eqb]; [|reflexivity].
  destruct (N.ltb_spec have size); [reflexivity|]. replace (have <? out) with false by (symmetry; apply N.ltb_ge; lia).
  unfold eff_of; cbn [r_st r_len r_written ended app]. destruct (0 <? out); reflexivity.
Qed.

(* The code refuses a buffer smaller than the cipher's last block; sym_final, encrypting, has no such test, so the two
   agree where `size` has not wrapped: buffered bytes, tag and one block of padding below 2^64. *)
Theorem enc_final_is_code (o : symop) (buf : obuf) :
  so_enc o = true -> so_buf o + so_tag o + BS < M64 ->
  let r := sym_final o buf in
  SymEncryptFinal.app (enc_final_env o buf) = (r_rv r, eff_of r).
Proof.
  intros He Hsmall. unfold enc_final_env, enc_final_out. SymEncryptFinal.open_env.
  cbv beta iota zeta delta [sym_final w64]. rewrite He. cbn [N.eqb negb orb Pos.eqb]. fold M64.
  rewrite !(N.mod_small (so_buf o + so_tag o) M64) by lia. set (rem := so_buf o + so_tag o) in *.
  destruct (is_block (so_mode o)); cbn [b2n N.eqb negb Pos.eqb andb]; [destruct (so_pad o); cbn [b2n N.eqb negb Pos.eqb andb]|].
  - rewrite andb_false_r. cbv iota. pose proof (block_floor (rem + BS)).
    rewrite (N.mod_small (rem + BS) M64), (N.mod_small _ M64) by lia. apply enc_final_tail, block_next.
  - rewrite andb_true_r. destruct (rem mod BS =? 0); cbn [negb]; [|reflexivity]. apply enc_final_tail. lia.
  - apply enc_final_tail. lia.
Qed.

Definition dec_final_fails (o : symop) : bool :=
  (is_block (so_mode o) && so_pad o && (so_buf o =? 0)) || (match so_mode o with GCM => so_buf o <? so_tag o | _ => false end).
Definition dec_final_out (o : symop) : N :=
  match so_mode o with GCM => so_buf o - so_tag o | _ => if is_block (so_mode o) && so_pad o then so_left o else 0 end.

Definition dec_final_env (o : symop) (buf : obuf) : SymDecryptFinal.env :=
  fold_right (fun f e => f e) SymDecryptFinal.default
    [(SymDecryptFinal.set_cipher_decryptFinal_at1 (fun _ => b2n (negb (dec_final_fails o))));
     (SymDecryptFinal.set_cipher_getBlockSize BS);
     (SymDecryptFinal.set_cipher_getBufferSize (so_buf o));
     (SymDecryptFinal.set_cipher_getPaddingMode (b2n (so_pad o)));
     (SymDecryptFinal.set_cipher_isBlockCipher (b2n (is_block (so_mode o))));
     (SymDecryptFinal.set_deref_pulDecryptedDataLen (have_of buf));
     (SymDecryptFinal.set_hv2_decryptedFinal_size (dec_final_out o));
     (SymDecryptFinal.set_session_getAllowMultiPartOp 1);
     (SymDecryptFinal.set_session_getSymmetricCryptoOp 1);
     (SymDecryptFinal.set_pDecryptedData (ptr_of buf))].

(* Decrypting, nothing is added to the buffered bytes: that they are a size_t is enough (`sub64 (so_buf o) 0 = so_buf o`). *)
Lemma dec_final_tail o buf size :
  so_enc o = false -> so_buf o < M64 -> is_block (so_mode o) && negb (so_buf o mod BS =? 0) = false ->
  size = announced (sym_final o) ->
  tail [(RESET, 0)] buf size (dec_final_fails o) (dec_final_out o) = (r_rv (sym_final o buf), eff_of (sym_final o buf)).
Proof.
  intros He Hsmall Hx ->. unfold tail. destruct (0 <? dec_final_out o) eqn:W.
  all: cbv beta iota zeta delta [announced sym_final dec_final_fails dec_final_out] in *; rewrite He, Hx; cbn [r_len app].
  all: destruct buf as [have|]; cbn [ptr_of have_of N.eqb Pos.eqb]; [|reflexivity].
  all: match goal with |- (if ?h <? ?s then _ else _) = _ => destruct (N.ltb_spec h s) as [|Hle] end; [reflexivity|].
  (* Mode by padding.  `discriminate W`: W = true where nothing comes out (unpadded ECB / CBC, CTR).  `break_ifs` decides
     the remaining tests on both sides at once.  `reflexivity`: both sides fail alike (nothing held back, GCM buffer
     shorter than the tag, have < so_left), or succeed with W = false.  `lia`: the code's `have < out` where the model
     has no such test (out = 0; GCM: out = so_buf o - so_tag o), against Hle.  Left: success with W = true. *)
  all: destruct (so_mode o), (so_pad o); cbn [is_block andb orb] in *; rewrite ?orb_false_r;
    try discriminate W; rewrite ?sub64_0 in Hle by assumption; break_ifs; try reflexivity; try (exfalso; lia).
  all: unfold eff_of; cbn [r_st r_len r_written ended app]; rewrite W; reflexivity.
Qed.

Theorem dec_final_is_code (o : symop) (buf : obuf) :
  so_enc o = false -> so_buf o < M64 ->
  let r := sym_final o buf in
  SymDecryptFinal.app (dec_final_env o buf) = (r_rv r, eff_of r).
Proof.
  intros He Hsmall. unfold dec_final_env. SymDecryptFinal.open_env. cbn [N.eqb negb orb Pos.eqb]. fold M64.
  rewrite !b2n_z, !negb_involutive. destruct (is_block (so_mode o) && negb (so_buf o mod BS =? 0)) eqn:Hx.
  - (* a block cipher with a broken block buffered: CKR_ENCRYPTED_DATA_LEN_RANGE on both sides *)
    unfold sym_final. rewrite He, Hx. apply andb_prop in Hx as [-> ->]. reflexivity.
  - (* Otherwise the code settles the size to announce and goes on as `tail` (dec_final_tail); the size is the model's:
       the buffered bytes, less one under padding unless there are none. *)
    destruct (is_block (so_mode o)) eqn:Hb; cbn [andb] in Hx.
    + rewrite Hx. destruct (so_pad o) eqn:Hp.
      * (* padding; code and model make the same test *)
        destruct (so_buf o <? 1) eqn:Ex.
        -- (* nothing buffered *)
           apply dec_final_tail; [exact He | exact Hsmall | rewrite Hb; exact Hx |].
           cbv beta iota zeta delta [announced sym_final]. rewrite He, Hb, Hx, Hp. cbn [r_len andb]. rewrite Ex. reflexivity.
        -- (* the last byte is padding at least *)
           apply dec_final_tail; [exact He | exact Hsmall | rewrite Hb; exact Hx |].
           cbv beta iota zeta delta [announced sym_final]. rewrite He, Hb, Hx, Hp. cbn [r_len andb]. rewrite Ex. reflexivity.
      * (* no padding: the code's test `buffered < 0` never holds *)
        replace (so_buf o <? 0) with false by (symmetry; apply N.ltb_ge, N.le_0_l).
        apply dec_final_tail; [exact He | exact Hsmall | rewrite Hb; exact Hx |].
        cbv beta iota zeta delta [announced sym_final]. rewrite He, Hb, Hx, Hp. reflexivity.
    + (* stream cipher: the buffered bytes *)
      apply dec_final_tail; [exact He | exact Hsmall | rewrite Hb; reflexivity |].
      cbv beta iota zeta delta [announced sym_final]. rewrite He, Hb. cbn [r_len andb]. symmetry. apply sub64_0, Hsmall.
Qed.

(* single-part calls: a copy of zero bytes is not an effect *)
Definition norm (l : list (N * N)) : list (N * N) := filter (fun e => negb ((fst e =? WRITE) && (snd e =? 0))) l.
Definition normr (r : N * list (N * N)) : N * list (N * N) := (fst r, norm (snd r)).

Lemma norm_write n tl : norm ((WRITE, n) :: tl) = (if 0 <? n then [(WRITE, n)] else []) ++ norm tl.
Proof.
  unfold norm. cbn [filter fst snd]. rewrite N.eqb_refl. cbn [andb].
  destruct (N.eqb_spec n 0) as [E|E]; cbn [negb].
  - subst. reflexivity.
  - replace (0 <? n) with true by (symmetry; apply N.ltb_lt; lia). reflexivity.
Qed.

(* the tags written as the numbers the regenerated code prints: 2^64 - 3 = RESET, 2^64 - 2 = LEN, 2^64 - 4 = WRITE *)
Lemma norm3 n m :
  norm [(18446744073709551613, 0); (18446744073709551614, n); (18446744073709551612, m)]
  = (RESET, 0) :: (LEN, n) :: (if 0 <? m then [(WRITE, m)] else []).
Proof.
  change (norm [(RESET, 0); (LEN, n); (WRITE, m)] = (RESET, 0) :: (LEN, n) :: (if 0 <? m then [(WRITE, m)] else [])).
  change (norm [(RESET, 0); (LEN, n); (WRITE, m)]) with ((RESET, 0) :: (LEN, n) :: norm [(WRITE, m)]).
  rewrite norm_write. apply f_equal, f_equal, app_nil_r.
Qed.

Lemma norm_dec n :
  norm ((18446744073709551613, 0) :: (18446744073709551614, n) :: (if negb (n =? 0) then [(18446744073709551612, n)] else []))
  = (RESET, 0) :: (LEN, n) :: (if 0 <? n then [(WRITE, n)] else []).
Proof.
  destruct (N.eqb_spec n 0) as [E|E]; cbn [negb].
  - subst. reflexivity.
  - rewrite norm3. reflexivity.
Qed.

Lemma normr_if (c : bool) a b : normr (if c then a else b) = if c then normr a else normr b.
Proof. destruct c; reflexivity. Qed.

(* a call whose whole result has the announced size (C_Encrypt, C_SignFinal, C_Sign), once that size is settled *)
Lemma fixed_out_is_code size st buf :
  ended st = false ->
  normr (if ptr_of buf =? 0 then (CKR_OK, [(LEN, size)]) else
         if have_of buf <? size then (CKR_BUFFER_TOO_SMALL, [(LEN, size)]) else
         (CKR_OK, [(RESET, 0); (LEN, size); (WRITE, size)]))
  = (r_rv (fixed_out size st buf), eff_of (fixed_out size st buf)).
Proof.
  intros Hst. unfold fixed_out, eff_of. destruct buf as [have|]; cbn [ptr_of have_of N.eqb Pos.eqb]; [destruct (have <? size)|];
    cbn [r_rv r_st r_len r_written]; rewrite ?Hst; try reflexivity.
  unfold normr. cbn [fst snd]. rewrite norm3. reflexivity.
Qed.

Definition enc_single_env (o : symop) (len : N) (buf : obuf) : SymEncrypt.env :=
  fold_right (fun f e => f e) SymEncrypt.default
    [(SymEncrypt.set_cipher_checkMaximumBytes (fun _ => 1));
     (SymEncrypt.set_cipher_encryptFinal_at2 (fun _ => 1));
     (SymEncrypt.set_cipher_encryptUpdate_at1 (fun _ _ => 1));
     (SymEncrypt.set_cipher_getBlockSize BS);
     (SymEncrypt.set_cipher_getPaddingMode (b2n (so_pad o)));
     (SymEncrypt.set_cipher_getTagBytes (so_tag o));
     (SymEncrypt.set_cipher_isBlockCipher (b2n (is_block (so_mode o))));
     (SymEncrypt.set_deref_pulEncryptedDataLen (have_of buf));
     (SymEncrypt.set_session_getAllowSinglePartOp 1);
     (SymEncrypt.set_session_getSymmetricCryptoOp 1);
     (SymEncrypt.set_ulDataLen len);
     (SymEncrypt.set_pEncryptedData (ptr_of buf))].

Theorem enc_single_is_code (o : symop) (len : N) (buf : obuf) :
  so_enc o = true ->
  let r := sym_single o len buf in
  normr (SymEncrypt.app (enc_single_env o len buf)) = (r_rv r, eff_of r).
Proof.
  intros He. unfold enc_single_env. SymEncrypt.open_env. cbn [N.eqb negb orb Pos.eqb]. fold M64. rewrite !b2n_z, !negb_involutive.
  rewrite <- !(sub64_lt ((len + BS) mod M64) (len mod BS)).
  2: { pose proof (N.mod_lt len BS). pose proof M64_big. unfold BS in *. lia. }
  cbv beta iota zeta delta [sym_single]. rewrite He.
  destruct (is_block (so_mode o)); cbn [andb]; [destruct (so_pad o); cbn [b2n N.eqb Pos.eqb negb andb]; destruct (len mod BS =? 0); cbn [negb andb]|];
    try reflexivity; apply (fixed_out_is_code _ (ASym o)); reflexivity.
Qed.

Definition mac_final_env (size : N) (buf : obuf) : MacSignFinal.env :=
  fold_right (fun f e => f e) MacSignFinal.default
    [(MacSignFinal.set_deref_pulSignatureLen (have_of buf));
     (MacSignFinal.set_hv2_signature_size size);
     (MacSignFinal.set_mac_getMacSize size);
     (MacSignFinal.set_mac_signFinal_at1 (fun _ => 1));
     (MacSignFinal.set_session_getMacOp 1);
     (MacSignFinal.set_pSignature (ptr_of buf))].
Definition mac_single_env (size len : N) (buf : obuf) : MacSign.env :=
  fold_right (fun f e => f e) MacSign.default
    [(MacSign.set_deref_pulSignatureLen (have_of buf));
     (MacSign.set_hv2_signature_size size);
     (MacSign.set_mac_getMacSize size);
     (MacSign.set_mac_signFinal_at2 (fun _ => 1));
     (MacSign.set_mac_signUpdate_at1 (fun _ => 1));
     (MacSign.set_session_getAllowSinglePartOp 1);
     (MacSign.set_session_getMacOp 1);
     (MacSign.set_ulDataLen len);
     (MacSign.set_pSignature (ptr_of buf))].

Theorem mac_final_is_code (size : N) (buf : obuf) :
  let r := fixed_out size (AMac size) buf in
  normr (MacSignFinal.app (mac_final_env size buf)) = (r_rv r, eff_of r).
Proof.
  unfold mac_final_env. MacSignFinal.open_env. cbn [N.eqb negb orb Pos.eqb]. rewrite N.eqb_refl. apply fixed_out_is_code. reflexivity.
Qed.

Theorem mac_single_is_code (size len : N) (buf : obuf) :
  let r := fixed_out size (AMac size) buf in
  normr (MacSign.app (mac_single_env size len buf)) = (r_rv r, eff_of r).
Proof.
  unfold mac_single_env. MacSign.open_env. cbn [N.eqb negb orb Pos.eqb]. rewrite N.eqb_refl. apply fixed_out_is_code. reflexivity.
Qed.

(* the honest-length clause for C_EncryptUpdate, as a statement about the regenerated function alone: with a buffer of
   at least the length it announces to a NULL pointer, the call is not answered CKR_BUFFER_TOO_SMALL *)
Theorem enc_update_announced_length_suffices (o : symop) (len have : N) :
  so_enc o = true ->
  forall n, In (LEN, n) (snd (SymEncryptUpdate.app (enc_update_env o len None))) ->
  fst (SymEncryptUpdate.app (enc_update_env o len (Some (N.max have n)))) <> CKR_BUFFER_TOO_SMALL.
Proof.
  intros He n Hin. rewrite enc_update_is_code in * by assumption. cbn [fst snd] in *.
  change (sym_update o len None) with (mkR CKR_OK (Some (announced (sym_update o len))) 0 (ASym o)) in Hin.
  destruct Hin as [[= <-]|[]].
  apply (enough_is_not_small _ _ _ _ _ (sym_update_answers o len _)), N.le_max_r.
Qed.

Definition dec_single_fails (o : symop) (len : N) : bool :=
  match so_mode o with
  | GCM => len <? so_tag o
  | _ => (is_block (so_mode o) && so_pad o && (len =? 0)) || (so_pad o && is_block (so_mode o) && (len <? so_left o))
  end.
Definition dec_single_out (o : symop) (len : N) : N :=
  match so_mode o with GCM => len - so_tag o | _ => if so_pad o && is_block (so_mode o) then so_left o else len end.

Definition dec_single_env (o : symop) (len : N) (buf : obuf) : SymDecrypt.env :=
  fold_right (fun f e => f e) SymDecrypt.default
    [(SymDecrypt.set_cipher_checkMaximumBytes (fun _ => 1));
     (SymDecrypt.set_cipher_decryptFinal_at2 (fun _ => b2n (negb (dec_single_fails o len))));
     (SymDecrypt.set_cipher_decryptUpdate_at1 (fun _ _ => 1));
     (SymDecrypt.set_cipher_getBlockSize BS);
     (SymDecrypt.set_cipher_isBlockCipher (b2n (is_block (so_mode o))));
     (SymDecrypt.set_deref_pulDataLen (have_of buf));
     (SymDecrypt.set_hv5_data_size (dec_single_out o len));
     (SymDecrypt.set_session_getAllowSinglePartOp 1);
     (SymDecrypt.set_session_getSymmetricCryptoOp 1);
     (SymDecrypt.set_ulEncryptedDataLen len);
     (SymDecrypt.set_pData (ptr_of buf))].

Lemma single_done n :
  (if negb (n =? 0) then normr (CKR_OK, [(RESET, 0); (LEN, n); (WRITE, n)]) else normr (CKR_OK, [(RESET, 0); (LEN, n)]))
  = (CKR_OK, eff_of (mkR CKR_OK (Some n) n ANone)).
Proof.
  transitivity (CKR_OK, norm ((RESET, 0) :: (LEN, n) :: (if negb (n =? 0) then [(WRITE, n)] else []))).
  - destruct (negb (n =? 0)); reflexivity.
  - rewrite norm_dec. reflexivity.
Qed.

Theorem dec_single_is_code (o : symop) (len : N) (buf : obuf) :
  so_enc o = false ->
  let r := sym_single o len buf in
  normr (SymDecrypt.app (dec_single_env o len buf)) = (r_rv r, eff_of r).
Proof.
  intros He. unfold dec_single_env. SymDecrypt.open_env. cbn [N.eqb negb orb Pos.eqb].
  rewrite !b2n_z, !negb_involutive, !normr_if, !single_done.
  cbv beta iota zeta delta [sym_single dec_single_fails dec_single_out]. rewrite He.
  destruct (_ && _); [reflexivity|].                       (* a broken block: CKR_ENCRYPTED_DATA_LEN_RANGE *)
  destruct buf as [have|]; cbn [ptr_of have_of N.eqb Pos.eqb]; [|reflexivity].      (* a query *)
  destruct (have <? len); [reflexivity|].                  (* CKR_BUFFER_TOO_SMALL *)
  (* What is left is the cipher's verdict and then, in the code only, the test `len < out`, which never holds. *)
  destruct (so_mode o); cbn [is_block andb orb].
  - (* ECB *) destruct (so_pad o); cbn [andb orb].
    + (* padded: refused when empty or shorter than the plaintext, by the same tests on both sides; out = so_left o *)
      destruct (len =? 0); cbn [orb]; [reflexivity|]. destruct (len <? so_left o); reflexivity.
    + (* unpadded: out = len *)
      rewrite N.ltb_irrefl. reflexivity.
  - (* CBC, as ECB *) destruct (so_pad o); cbn [andb orb].
    + destruct (len =? 0); cbn [orb]; [reflexivity|]. destruct (len <? so_left o); reflexivity.
    + rewrite N.ltb_irrefl. reflexivity.
  - (* CTR: out = len *)
    destruct (so_pad o); cbn [andb orb]; rewrite N.ltb_irrefl; reflexivity.
  - (* GCM: refused when shorter than the tag; out = len - so_tag o *)
    destruct (len <? so_tag o); [reflexivity|].
    replace (len <? len - so_tag o) with false by (symmetry; apply N.ltb_ge, N.le_sub_l). reflexivity.
Qed.
