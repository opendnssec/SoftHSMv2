(* Crypto/OpFacts.v — one active operation per session and an honest output-length protocol (C12). *)
From Coq Require Import NArith Bool Lia ZifyBool.
From SoftHSM Require Import Gen_Const OpModel.

Local Open Scope N_scope.

Definition is_init (c : call) : bool :=
  match c with CInitSym _ _ _ _ _ | CInitDigest _ | CInitMac _ | CInitFind => true | _ => false end.

Theorem init_when_idle (c : call) :
  is_init c = true -> r_rv (do_call ANone c) = CKR_OK /\ r_st (do_call ANone c) <> ANone.
Proof. destruct c; try discriminate; intros _; cbn; split; try reflexivity; discriminate. Qed.

(* the kind of operation a call continues (C12_continue_without_init: with none, or one of another kind, active it
   answers CKR_OPERATION_NOT_INITIALIZED, changes and writes nothing) *)
Definition call_kind (c : call) : option N :=
  match c with CUpdate k _ _ | CFinal k _ | CSingle k _ _ => Some k | CFindFinal => Some SESSION_OP_FIND | _ => None end.

Definition call_buf (c : call) : option obuf :=
  match c with CUpdate _ _ b | CFinal _ b | CSingle _ _ b => Some b | _ => None end.

Definition with_buf_call (c : call) (b : obuf) : call :=
  match c with
  | CUpdate k l _ => CUpdate k l b
  | CFinal k _ => CFinal k b
  | CSingle k l _ => CSingle k l b
  | _ => c
  end.

(* reachable operation states: at most 2^35 bytes buffered or supplied per call, tag at most 16 bytes
   (C_EncryptInit / C_DecryptInit refuse ulTagBits > 128).  2^35 = 34359738368 is 2^31 blocks of 16 bytes: below it
   `int nrOfBlocks` of Sym{En,De}cryptUpdate holds the block count (blocks_small). *)
Definition sane (o : symop) (len : N) : Prop := so_buf o + len < 34359738368 /\ so_tag o <= 16.
Local Notation two35 := 34359738368 (only parsing).
(* the hypothesis of no_overwrite as written there: `sane o 0` of a symmetric operation, conjuncts in the other order *)
Definition sane_st (st : active) : Prop :=
  match st with ASym o => so_tag o <= 16 /\ so_buf o < two35 | _ => True end.

(* The forms the answer to a call with an output buffer takes.  `size` is the length a query announces; `fin`
   says that success ends the operation (final and single-part calls).  That no more is written than the buffer
   holds is claimed of reachable states only: sym_final, encrypting, does not compare the cipher's last block
   with the buffer, so the claim rests on `size` not having wrapped. *)
Inductive answers (fin : bool) (st : active) (size : N) : obuf -> ores -> Prop :=
| a_query : answers fin st size None (mkR CKR_OK (Some size) 0 st)
| a_small have : have < size -> answers fin st size (Some have) (mkR CKR_BUFFER_TOO_SMALL (Some size) 0 st)
| a_done have out st' : size <= have -> (sane_st st -> out <= have) -> fin = false \/ st' = ANone ->
    answers fin st size (Some have) (mkR CKR_OK (Some out) out st')
| a_fail rv buf : rv <> CKR_OK -> rv <> CKR_BUFFER_TOO_SMALL -> answers fin st size buf (mkR rv None 0 ANone)
| a_refused buf : answers fin st size buf (mkR NOT_INIT None 0 st)
| a_nobuf buf : fin = false -> answers fin st size buf (mkR CKR_OK None 0 st).

Definition announced (f : obuf -> ores) : N := match r_len (f None) with Some n => n | None => 0 end.

Local Hint Constructors answers : ops.
Local Hint Extern 1 (_ <> _) => discriminate : ops.
Local Hint Extern 3 (_ <= _) => lia : ops.

Ltac break_ifs :=
  repeat match goal with
         | |- context [if ?c then _ else _] => destruct c eqn:?
         | |- context [match ?m with ECB => _ | _ => _ end] => destruct m eqn:?
         end.

Lemma w64_small x : x < M64 -> w64 x = x.
Proof. unfold w64. intros H. apply N.mod_small. exact H. Qed.

Lemma w64_le x : w64 x <= x.
Proof. apply N.mod_le. discriminate. Qed.

Lemma M64_big : 2 * two35 <= M64.
Proof. discriminate. Qed.

Lemma sub64_lt a b : b < M64 -> sub64 a b = (a + M64 - b) mod M64.
Proof. intros H. unfold sub64. rewrite (N.mod_small b) by exact H. reflexivity. Qed.

Lemma sub64_small a b : b <= a -> a < M64 -> sub64 a b = a - b.
Proof.
  intros Hb Ha. rewrite sub64_lt by lia.
  replace (a + M64 - b) with (a - b + 1 * M64) by lia. rewrite N.mod_add by discriminate. apply N.mod_small. lia.
Qed.

Lemma int32_small x : x < 2147483648 -> int32_as_size x = x.
Proof.
  unfold int32_as_size. intros H. rewrite N.mod_small by lia.
  destruct (x <? 2147483648) eqn:E; [reflexivity|]. apply N.ltb_ge in E. lia.
Qed.

Lemma block_floor x : x / BS * BS <= x.
Proof. rewrite N.mul_comm. apply N.mul_div_le. discriminate. Qed.

Lemma block_next x : BS <= (x + BS) / BS * BS.
Proof.
  rewrite <- (N.mul_1_l BS) at 2. rewrite N.div_add by discriminate. rewrite N.mul_add_distr_r, N.mul_1_l. apply N.le_add_l.
Qed.

(* `int nrOfBlocks = x / blockSize; size = nrOfBlocks * blockSize` loses nothing below 2^35 bytes *)
Lemma blocks_small x : x < two35 -> w64 (int32_as_size (x / BS) * BS) = x / BS * BS.
Proof.
  intros H. pose proof M64_big. pose proof (block_floor x). rewrite int32_small. { apply w64_small. lia. }
  apply N.div_lt_upper_bound; [discriminate|exact H].
Qed.

Ltac ltb_case a := match goal with |- context [if a <? ?b then _ else _] => destruct (N.ltb_spec a b) end.

Lemma answers_buf fin st size buf (run : N -> ores) :
  (forall have, size <= have -> answers fin st size (Some have) (run have)) ->
  answers fin st size buf
    match buf with
    | None => mkR CKR_OK (Some size) 0 st
    | Some have => if have <? size then mkR CKR_BUFFER_TOO_SMALL (Some size) 0 st else run have
    end.
Proof. intros H. destruct buf as [have|]; [ltb_case have|]; auto with ops. Qed.

Lemma sym_update_answers o len buf :
  answers false (ASym o) (announced (sym_update o len)) buf (sym_update o len buf).
Proof. apply answers_buf. intros have Hle. ltb_case have; auto with ops. Qed.

Lemma fixed_out_answers size st buf : answers true st size buf (fixed_out size st buf).
Proof. apply answers_buf. auto with ops. Qed.

Lemma sym_single_answers o len buf :
  answers true (ASym o) (announced (sym_single o len)) buf (sym_single o len buf).
Proof.
  cbv beta zeta delta [announced sym_single]. destruct (so_enc o).
  - destruct (_ && _ && _); [auto with ops|]. apply answers_buf. auto with ops.
  - destruct (_ && _); [auto with ops|]. apply answers_buf. intros have Hle.
    destruct (so_mode o), (so_pad o); cbn [is_block andb]; break_ifs; auto with ops.
Qed.

Lemma sym_final_answers o buf :
  answers true (ASym o) (announced (sym_final o)) buf (sym_final o buf).
Proof.
  cbv beta zeta delta [announced sym_final]. pose proof M64_big. destruct (so_enc o).
  - destruct (_ && _ && _); [auto with ops|]. apply answers_buf. intros have Hle. apply a_done; auto. intros [Ht Hb].
    cbn [r_len] in Hle. rewrite w64_small in * by lia. pose proof (block_next (so_buf o + so_tag o)). destruct (is_block _); [destruct (so_pad o)|]; lia.
  - destruct (_ && _); [auto with ops|]. apply answers_buf. intros have Hle. cbn [r_len] in Hle.
    destruct (so_mode o), (so_pad o); cbn [is_block andb] in *; break_ifs; auto with ops.
    all: apply a_done; auto; intros [_ Hb]; rewrite sub64_small in * by lia; lia.
Qed.

Definition is_final (c : call) : bool := match c with CUpdate _ _ _ => false | _ => true end.

Lemma with_buf_call_same c b : call_buf c = Some b -> with_buf_call c b = c.
Proof. destruct c; intros [= <-]; reflexivity. Qed.

Lemma do_call_answers st c b :
  call_buf c = Some b -> exists size, forall b', answers (is_final c) st size b' (do_call st (with_buf_call c b')).
Proof.
  destruct c; try discriminate; intros _; cbn [do_call with_buf_call is_final].
  (* CUpdate, CFinal, CSingle.  Each tests the kind first and refuses a call of another kind (a_refused); then the state
     decides.  Where the answer does not depend on the buffer any size will do. *)
  - destruct (negb _); [exists 0; auto with ops|]. destruct st.
    + exists 0; auto with ops.                         (* no operation: a_refused *)
    + eexists; intro; apply sym_update_answers.
    + exists 0; auto with ops.                         (* C_DigestUpdate takes no buffer: a_nobuf *)
    + exists 0; auto with ops.                         (* C_SignUpdate: a_nobuf *)
    + exists 0; auto with ops.                         (* a search: a_refused *)
  - destruct (negb _); [exists 0; auto with ops|]. destruct st.
    + exists 0; auto with ops.
    + eexists; intro; apply sym_final_answers.
    + eexists; intro; apply fixed_out_answers.
    + eexists; intro; apply fixed_out_answers.
    + exists 0; auto with ops.
  - destruct (negb _); [exists 0; auto with ops|]. destruct st.
    + exists 0; auto with ops.
    + eexists; intro; apply sym_single_answers.
    + eexists; intro; apply fixed_out_answers.
    + eexists; intro; apply fixed_out_answers.
    + exists 0; auto with ops.
Qed.

Lemma do_call_answer st c b : call_buf c = Some b -> exists size, answers (is_final c) st size b (do_call st c).
Proof.
  intros E. destruct (do_call_answers st c b E) as [size A]. exists size. rewrite <- (with_buf_call_same c b E) at 2. apply A.
Qed.

(* C12_no_overwrite: no call writes more bytes than the caller's buffer holds, and one answered CKR_OK writes nothing or
   exactly the length it reports *)
Theorem no_overwrite (st : active) (c : call) (have : N) :
  call_buf c = Some (Some have) ->
  match st with ASym o => so_tag o <= 16 /\ so_buf o < 34359738368 | _ => True end ->
  r_written (do_call st c) <= have /\
  (r_rv (do_call st c) = CKR_OK -> r_written (do_call st c) = 0 \/ r_len (do_call st c) = Some (r_written (do_call st c))).
Proof.
  intros E Hs. destruct (do_call_answer st c _ E) as [size A].
  (* only a_done writes: `out`, at most `have` by its second premise and Hs, and it reports `out` *)
  inversion A; cbn; auto with ops.
Qed.

Lemma query_or_too_small_keeps st c b :
  call_buf c = Some b -> (b = None /\ r_rv (do_call st c) = CKR_OK) \/ r_rv (do_call st c) = CKR_BUFFER_TOO_SMALL ->
  r_st (do_call st c) = st /\ r_written (do_call st c) = 0.
Proof.
  intros E H. destruct (do_call_answer st c b E) as [size A]. revert H.
  (* a_query, a_small, a_refused, a_nobuf leave the state and write nothing; a_done answers CKR_OK to a buffer and
     a_fail neither CKR_OK nor CKR_BUFFER_TOO_SMALL, against H *)
  destruct A; cbn; auto; intros [[]|]; easy.
Qed.

Lemma reported_is_announced fin st size buf r n :
  answers fin st size buf r -> r_len r = Some n -> r_rv r = CKR_BUFFER_TOO_SMALL \/ buf = None -> n = size.
Proof. destruct 1; cbn; intros Hn [|]; try easy; congruence. Qed.

Lemma enough_is_not_small fin st size have r :
  answers fin st size (Some have) r -> size <= have -> r_rv r <> CKR_BUFFER_TOO_SMALL.
Proof. inversion 1; cbn; try easy; lia. Qed.

Lemma evp_update_out_le o len :
  (if so_enc o then evp_enc_update_out o len else evp_dec_update_out o len) <= so_buf o + len.
Proof.
  unfold evp_enc_update_out, evp_dec_update_out. pose proof (block_floor (so_buf o + len)). pose proof (block_floor (so_buf o + len - 1)).
  destruct (so_enc o); break_ifs; lia.
Qed.

Lemma update_announced o len :
  sane o len ->
  announced (sym_update o len) =
  if is_block (so_mode o) then (if so_enc o then evp_enc_update_out o len else evp_dec_update_out o len) else so_buf o + len.
Proof.
  intros [Hs Ht]. cbv beta zeta delta [announced sym_update]. cbn [r_len]. pose proof M64_big.
  rewrite (N.add_comm len), (w64_small (so_buf o + len)) by lia.
  destruct (is_block (so_mode o)) eqn:Hb; [|reflexivity].
  unfold evp_enc_update_out, evp_dec_update_out. rewrite Hb.
  destruct (so_enc o); [|destruct (so_mode o); try discriminate Hb; destruct (so_pad o)].
  (* padded decryption holds one byte back, unless there is none *)
  2, 4: destruct (N.eqb_spec (so_buf o + len) 0) as [E|E]; [rewrite E; reflexivity|]; destruct (N.ltb_spec (so_buf o + len) 1); [lia|].
  all: rewrite sub64_small, blocks_small by lia; rewrite ?N.sub_0_r; reflexivity.
Qed.

Lemma final_announced_le o : sane o 0 -> announced (sym_final o) <= so_buf o + BS + so_tag o.
Proof.
  intros [Hs Ht]. cbv beta zeta delta [announced sym_final]. pose proof M64_big. destruct (so_enc o).
  - rewrite w64_small by lia. destruct (_ && _ && _); cbn [r_len]; [lia|].
    pose proof (block_floor (so_buf o + so_tag o + BS)). destruct (is_block _); [destruct (so_pad o)|]; lia.
  - destruct (_ && _); cbn [r_len]; [lia|]. rewrite sub64_small by (break_ifs; lia). lia.
Qed.

Lemma single_announced_le o len : len < two35 -> announced (sym_single o len) <= len + BS + so_tag o.
Proof.
  intros Hs. cbv beta zeta delta [announced sym_single]. pose proof M64_big. destruct (so_enc o).
  - destruct (_ && _ && _); cbn [r_len]; [lia|]. pose proof (w64_le (len + so_tag o)). pose proof (w64_le (len + BS)).
    assert (len mod BS <= len) by (apply N.mod_le; discriminate).
    assert (sub64 (w64 (len + BS)) (len mod BS) <= len + BS).
    { unfold BS in *. rewrite w64_small, sub64_small by lia. apply N.le_sub_l. }
    break_ifs; lia.
  - destruct (_ && _); cbn [r_len]; lia.
Qed.

(* non-vacuity: a padded CBC decryption of 32 ciphertext bytes in two parts *)
Example demo_dec :
  let s1 := r_st (do_call ANone (CInitSym false CBC true 0 20)) in
  let r2 := do_call s1 (CUpdate SESSION_OP_DECRYPT 16 None) in
  let r3 := do_call s1 (CUpdate SESSION_OP_DECRYPT 16 (Some 0)) in
  let r4 := do_call (r_st r3) (CUpdate SESSION_OP_DECRYPT 16 (Some 16)) in
  r_len r2 = Some 0 /\ r_rv r3 = CKR_OK /\ r_written r4 = 16 /\ r_len (do_call (r_st r4) (CFinal SESSION_OP_DECRYPT None)) = Some 15.
Proof. vm_compute. auto. Qed.
