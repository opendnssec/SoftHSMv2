(* Crypto/OpHonest.v — the output-length protocol, proved directly about the regenerated code (C12): what is proved
   of each function ([honest]), the shapes its results take ([shaped]) and the tactic that walks its paths; the
   theorems, one per function, are C12_*_honest (props/Properties_C12.v).

   No model here: the statements are about gen/Gen_Ops.v (the functions of SoftHSM.cpp that carry out an operation,
   regenerated whole on every run) for EVERY value of every input - in particular for any behaviour of the crypto
   backend (what the cipher returns, how many bytes it hands back), which appears as universally quantified parameters.
   Effects, newest first:  (LEN, n) = `*pulLen = n`;  (RESET, 0) = session->resetOp();  (WRITE, n) = memcpy of n bytes
   into the caller's buffer.  The tags are the numbers translator/shallow.py prints for them. *)
From Coq Require Import List NArith.
From SoftHSM Require Import Gen_Const.
Import ListNotations.
Local Open Scope N_scope.

Definition LEN : N := 18446744073709551614.
Definition RESET : N := 18446744073709551613.
Definition WRITE : N := 18446744073709551612.

Definition no_reset (l : list (N * N)) : Prop := ~ In (RESET, 0) l.
Definition no_write (l : list (N * N)) : Prop := forall n, In (WRITE, n) l -> n = 0.

(* `have` = the buffer size the caller announced (the value of pulLen[0] on entry), `ptr` = the output pointer (0 = NULL) *)
Record honest (have ptr : N) (r : N * list (N * N)) : Prop := {
  (* a length query or CKR_BUFFER_TOO_SMALL: the operation stays, nothing is written, a length is reported *)
  h_query : (fst r = CKR_BUFFER_TOO_SMALL \/ (ptr = 0 /\ fst r = CKR_OK)) ->
            no_reset (snd r) /\ no_write (snd r) /\ exists n, In (LEN, n) (snd r);
  (* CKR_BUFFER_TOO_SMALL is only said of a buffer that is smaller than the reported length *)
  h_small : fst r = CKR_BUFFER_TOO_SMALL -> ptr <> 0 /\ forall n, In (LEN, n) (snd r) -> have < n;
  (* nothing is written through a NULL pointer; never more than announced; what is written is what is reported *)
  h_write : forall n, In (WRITE, n) (snd r) -> n = 0 \/ (ptr <> 0 /\ n <= have /\ In (LEN, n) (snd r));
  (* a call that fails for another reason ends the operation *)
  h_fail : fst r <> CKR_OK -> fst r <> CKR_BUFFER_TOO_SMALL -> In (RESET, 0) (snd r)
}.

Definition update_stays (r : N * list (N * N)) : Prop := fst r = CKR_OK -> no_reset (snd r).
Definition final_ends (ptr : N) (r : N * list (N * N)) : Prop := ptr <> 0 -> fst r = CKR_OK -> In (RESET, 0) (snd r).

(* `fin`: success ends the operation (the final and single-part functions) *)
Inductive shaped (have ptr : N) : bool -> N * list (N * N) -> Prop :=
| s_fail fin rv : rv <> CKR_OK -> rv <> CKR_BUFFER_TOO_SMALL -> shaped have ptr fin (rv, [(RESET, 0)])
| s_query fin size : ptr = 0 -> shaped have ptr fin (CKR_OK, [(LEN, size)])
| s_small fin size : ptr <> 0 -> have < size -> shaped have ptr fin (CKR_BUFFER_TOO_SMALL, [(LEN, size)])
| s_done out tl : ptr <> 0 -> out <= have -> tl = [] \/ tl = [(WRITE, out)] ->
    shaped have ptr false (CKR_OK, (LEN, out) :: tl)
| s_ended out tl : ptr <> 0 -> out <= have -> tl = [] \/ tl = [(WRITE, out)] ->
    shaped have ptr true (CKR_OK, (RESET, 0) :: (LEN, out) :: tl).

(* a test at the head of the result: comparisons are kept as hypotheses, anything else plays no part *)
Lemma shaped_ltb have ptr fin a b x y :
  (a < b -> shaped have ptr fin x) -> (b <= a -> shaped have ptr fin y) -> shaped have ptr fin (if a <? b then x else y).
Proof. destruct (N.ltb_spec a b); auto. Qed.

Lemma shaped_eqb have ptr fin a b x y :
  (a = b -> shaped have ptr fin x) -> (a <> b -> shaped have ptr fin y) -> shaped have ptr fin (if a =? b then x else y).
Proof. destruct (N.eqb_spec a b); auto. Qed.

Lemma shaped_if have ptr fin (c : bool) x y :
  shaped have ptr fin x -> shaped have ptr fin y -> shaped have ptr fin (if c then x else y).
Proof. destruct c; auto. Qed.

Lemma shaped_honest have ptr fin r :
  shaped have ptr fin r -> honest have ptr r /\ (if fin then final_ends ptr r else update_stays r).
Proof.
  assert (D : CKR_BUFFER_TOO_SMALL <> CKR_OK /\ LEN <> RESET /\ LEN <> WRITE /\ RESET <> WRITE) by (repeat split; discriminate).
  (* Each clause speaks of membership in a list of at most three known effects, i.e. of a few equalities between pairs:
     `intuition` takes them apart, D tells the tags and the two codes apart for `congruence`, and `eauto` finds the
     witness of `exists n, In (LEN, n) _`. *)
  destruct 1 as [[] | [] | [] | ? ? ? ? [->| ->] | ? ? ? ? [->| ->]]; (split; [split|]);
    unfold final_ends, update_stays, no_reset, no_write; cbn [fst snd In]; intuition (try congruence; eauto).
Qed.

(* Every path through a regenerated function ends in one of the shapes.  `constructor` tries them in turn; the leaf
   decides which fits: the return code (s_fail: neither CKR_OK nor CKR_BUFFER_TOO_SMALL; s_small), RESET in front
   (s_ended).  Only s_query and s_done both fit `(CKR_OK, [(LEN, n)])`: there the test of the pointer met on the way
   decides, `solve` fails on the wrong one and `constructor` goes on.  The premises are comparisons met on the path,
   or two of them in a row (SymDecrypt: out <= len <= have). *)
Ltac paths :=
  repeat first [apply shaped_ltb; intro | apply shaped_eqb; intro | apply shaped_if];
  constructor; solve [eauto using N.le_trans | discriminate].

