(* Properties_C12 — one active operation per session and an honest output-length protocol.
   Model: coq/Crypto/OpModel.v (machine arithmetic of the C++). *)
From Coq Require Import List NArith Bool Lia.
From SoftHSM Require Import Gen_Const OpModel OpFacts Gen_Ops OpIsCode OpHonest.
Import ListNotations.
Local Open Scope N_scope.

(* starting another operation while one is active: CKR_OPERATION_ACTIVE, and the active one is untouched *)
Theorem C12_init_when_active : forall (st : active) (c : call),
  is_init c = true -> st <> ANone ->
  r_rv (do_call st c) = CKR_OPERATION_ACTIVE /\ r_st (do_call st c) = st /\ r_written (do_call st c) = 0.
Proof.
  (* the four Init calls; each matches on the state, and H excludes ANone *)
  intros st c. destruct c; try discriminate; intros _ H; destruct st; try congruence; cbn; auto.
Qed.
Print Assumptions C12_init_when_active.

Theorem C12_continue_without_init : forall (st : active) (c : call) (k : N),
  call_kind c = Some k -> kind_of st <> k ->
  r_rv (do_call st c) = CKR_OPERATION_NOT_INITIALIZED /\ r_st (do_call st c) = st /\ r_written (do_call st c) = 0.
Proof.
  intros st c k.
  destruct c; cbn [call_kind]; try discriminate; intros [= <-] H; cbn [do_call].
  - (* CUpdate: the test of the kind fails *)
    apply N.eqb_neq in H. rewrite H. cbn. auto.
  - (* CFinal, likewise *)
    apply N.eqb_neq in H. rewrite H. cbn. auto.
  - (* CSingle, likewise *)
    apply N.eqb_neq in H. rewrite H. cbn. auto.
  - (* CFindFinal matches on the state: every state but a search is refused, and a search is excluded by H *)
    destruct st; cbn; auto. exfalso. apply H. reflexivity.
Qed.
Print Assumptions C12_continue_without_init.

(* an operation that finished, or failed with an error of its own, is gone *)
Theorem C12_finished_is_gone : forall (st : active) (c : call) (have : N),
  (exists k, c = CFinal k (Some have)) \/ (exists k l, c = CSingle k l (Some have)) ->
  r_rv (do_call st c) = CKR_OK -> r_st (do_call st c) = ANone.
Proof.
  intros st c have H. assert (E : call_buf c = Some (Some have) /\ is_final c = true) by (destruct H as [[k ->]|[k [l ->]]]; auto).
  destruct E as [E F]. destruct (do_call_answer st c _ E) as [size A]. rewrite F in A.
  (* Of the forms of `answers` to a buffer, a_small, a_fail and a_refused do not answer CKR_OK and a_nobuf needs
     fin = false; a_done is left, and its last premise, Gone, says that the operation has ended. *)
  inversion A as [ | | ? ? st' _ _ Gone | | | ]; cbn; try easy.
  intros _. destruct Gone as [[=]| ->]. reflexivity.
Qed.
Print Assumptions C12_finished_is_gone.

Theorem C12_failed_is_gone : forall (st : active) (c : call),
  let r := do_call st c in
  r_rv r <> CKR_OK -> r_rv r <> CKR_BUFFER_TOO_SMALL -> r_rv r <> CKR_OPERATION_NOT_INITIALIZED -> r_rv r <> CKR_OPERATION_ACTIVE ->
  r_st r = ANone.
Proof.
  intros st c.
  cbv zeta. destruct (call_buf c) as [b|] eqn:E.
  - (* a call with a buffer: of the forms of `answers`, a_fail is the only one with a code other than the four, and
       it ends the operation *)
    destruct (do_call_answer st c b E) as [size A]. destruct A; cbn; easy.
  - (* the Init calls and CFindFinal answer CKR_OK, CKR_OPERATION_ACTIVE or CKR_OPERATION_NOT_INITIALIZED *)
    destruct c; try discriminate E; destruct st; cbn; intros; try reflexivity; exfalso; auto.
Qed.
Print Assumptions C12_failed_is_gone.

(* a length query (NULL output pointer) that answers CKR_OK, and a CKR_BUFFER_TOO_SMALL answer, leave the
   operation active and unchanged and write nothing (the statement leaves digest and MAC updates out; they are in
   OpFacts.query_or_too_small_keeps, of which this is a case) *)
Theorem C12_query_or_too_small_keeps_operation : forall (st : active) (c : call) (b : obuf),
  call_buf c = Some b ->
  (b = None /\ r_rv (do_call st c) = CKR_OK) \/ r_rv (do_call st c) = CKR_BUFFER_TOO_SMALL ->
  match st, c with
  | (ADigest _ | AMac _), CUpdate _ _ _ => True
  | _, _ => r_st (do_call st c) = st /\ r_written (do_call st c) = 0
  end.
Proof. intros st c b E H. pose proof (query_or_too_small_keeps st c b E H). destruct st, c; trivial. Qed.
Print Assumptions C12_query_or_too_small_keeps_operation.

(* the length reported by a query or a CKR_BUFFER_TOO_SMALL answer is sufficient: repeating the call with a
   buffer of at least that size is not answered CKR_BUFFER_TOO_SMALL *)
Theorem C12_reported_sufficient : forall (st : active) (c : call) (b : obuf) (n have : N),
  call_buf c = Some b ->
  (r_rv (do_call st c) = CKR_OK /\ b = None) \/ r_rv (do_call st c) = CKR_BUFFER_TOO_SMALL ->
  r_len (do_call st c) = Some n -> n <= have ->
  r_rv (do_call st (with_buf_call c (Some have))) <> CKR_BUFFER_TOO_SMALL.
Proof.
  intros st c b n have E H Hn Hle. destruct (do_call_answers st c b E) as [size A].
  pose proof (A b) as Ab. rewrite (with_buf_call_same c b E) in Ab.
  assert (n = size) as -> by (apply (reported_is_announced _ _ _ _ _ _ Ab Hn); tauto).
  exact (enough_is_not_small _ _ _ _ _ (A (Some have)) Hle).
Qed.
Print Assumptions C12_reported_sufficient.

(* bound: input + buffered + one block + tag, in the machine arithmetic of the code, for every reachable
   operation state with less than 2^35 bytes buffered or supplied *)
Theorem C12_reported_bounded_update : forall (o : symop) (len : N) (buf : obuf) (n : N),
  sane o len -> r_len (sym_update o len buf) = Some n ->
  r_rv (sym_update o len buf) = CKR_BUFFER_TOO_SMALL \/ buf = None -> n <= len + so_buf o + BS + so_tag o.
Proof.
  intros o len buf n Hs Hn H.
  (* the reported length is the announced one; in a reachable state that is what the cipher hands back (block cipher),
     which is at most what it has, or input plus buffered bytes *)
  rewrite (reported_is_announced _ _ _ _ _ _ (sym_update_answers o len buf) Hn H), (update_announced o len Hs).
  pose proof (evp_update_out_le o len). destruct (is_block _); lia.
Qed.
Print Assumptions C12_reported_bounded_update.
Theorem C12_reported_bounded_final : forall (o : symop) (buf : obuf) (n : N),
  sane o 0 -> r_len (sym_final o buf) = Some n ->
  r_rv (sym_final o buf) = CKR_BUFFER_TOO_SMALL \/ buf = None -> n <= so_buf o + BS + so_tag o.
Proof.
  intros o buf n Hs Hn H. rewrite (reported_is_announced _ _ _ _ _ _ (sym_final_answers o buf) Hn H). apply final_announced_le, Hs.
Qed.
Print Assumptions C12_reported_bounded_final.
Theorem C12_reported_bounded_single : forall (o : symop) (len : N) (buf : obuf) (n : N),
  len < 34359738368 -> so_tag o <= 16 -> r_len (sym_single o len buf) = Some n ->
  r_rv (sym_single o len buf) = CKR_BUFFER_TOO_SMALL \/ buf = None -> n <= len + BS + so_tag o.
Proof.
  intros o len buf n Hs _ Hn H. rewrite (reported_is_announced _ _ _ _ _ _ (sym_single_answers o len buf) Hn H). apply single_announced_le, Hs.
Qed.
Print Assumptions C12_reported_bounded_single.
(* block-mode updates report exactly what they will write *)
Theorem C12_update_report_exact : forall (o : symop) (len : N) (have : N),
  sane o len -> is_block (so_mode o) = true -> r_rv (sym_update o len (Some have)) = CKR_OK ->
  r_len (sym_update o len None) = Some (r_written (sym_update o len (Some have))).
Proof.
  intros o len have Hs Hb.
  (* a query reports `announced`, which for a block cipher in a reachable state is what the cipher hands back *)
  change (r_len (sym_update o len None)) with (Some (announced (sym_update o len))).
  rewrite (update_announced o len Hs), Hb.
  (* a call answered CKR_OK has passed both tests of the buffer, and writes just that *)
  cbv beta iota zeta delta [sym_update].
  ltb_case have; [discriminate|]. ltb_case have; [discriminate|]. reflexivity.
Qed.
Print Assumptions C12_update_report_exact.

Theorem C12_no_overwrite : forall (st : active) (c : call) (have : N),
  call_buf c = Some (Some have) ->
  match st with ASym o => so_tag o <= 16 /\ so_buf o < 34359738368 | _ => True end ->
  r_written (do_call st c) <= have /\
  (r_rv (do_call st c) = CKR_OK -> r_written (do_call st c) = 0 \/ r_len (do_call st c) = Some (r_written (do_call st c))).
Proof. exact no_overwrite. Qed.
Print Assumptions C12_no_overwrite.

(* the model's update / final / single-part steps are the regenerated code (gen/Gen_Ops.v), at the inputs OpIsCode.v
   builds from the model's state (`*_env`) *)

Theorem C12_enc_update_is_code : forall (o : symop) (len : N) (buf : obuf),
  so_enc o = true ->
  let r := sym_update o len buf in
  SymEncryptUpdate.app (enc_update_env o len buf) = (r_rv r, eff_of r).
Proof. exact enc_update_is_code. Qed.
Print Assumptions C12_enc_update_is_code.

Theorem C12_dec_update_is_code : forall (o : symop) (len : N) (buf : obuf),
  so_enc o = false ->
  let r := sym_update o len buf in
  SymDecryptUpdate.app (dec_update_env o len buf) = (r_rv r, eff_of r).
Proof. exact dec_update_is_code. Qed.
Print Assumptions C12_dec_update_is_code.

Theorem C12_enc_final_is_code : forall (o : symop) (buf : obuf),
  so_enc o = true -> so_buf o + so_tag o + BS < M64 ->
  let r := sym_final o buf in
  SymEncryptFinal.app (enc_final_env o buf) = (r_rv r, eff_of r).
Proof. exact enc_final_is_code. Qed.
Print Assumptions C12_enc_final_is_code.

Theorem C12_dec_final_is_code : forall (o : symop) (buf : obuf),
  so_enc o = false -> so_buf o < M64 ->
  let r := sym_final o buf in
  SymDecryptFinal.app (dec_final_env o buf) = (r_rv r, eff_of r).
Proof. exact dec_final_is_code. Qed.
Print Assumptions C12_dec_final_is_code.

Theorem C12_enc_single_is_code : forall (o : symop) (len : N) (buf : obuf),
  so_enc o = true ->
  let r := sym_single o len buf in
  normr (SymEncrypt.app (enc_single_env o len buf)) = (r_rv r, eff_of r).
Proof. exact enc_single_is_code. Qed.
Print Assumptions C12_enc_single_is_code.

Theorem C12_mac_final_is_code : forall (size : N) (buf : obuf),
  let r := fixed_out size (AMac size) buf in
  normr (MacSignFinal.app (mac_final_env size buf)) = (r_rv r, eff_of r).
Proof. exact mac_final_is_code. Qed.
Print Assumptions C12_mac_final_is_code.

Theorem C12_mac_single_is_code : forall (size len : N) (buf : obuf),
  let r := fixed_out size (AMac size) buf in
  normr (MacSign.app (mac_single_env size len buf)) = (r_rv r, eff_of r).
Proof. exact mac_single_is_code. Qed.
Print Assumptions C12_mac_single_is_code.

Theorem C12_enc_update_announced_length_suffices : forall (o : symop) (len have : N),
  so_enc o = true ->
  forall n, In (LEN, n) (snd (SymEncryptUpdate.app (enc_update_env o len None))) ->
  fst (SymEncryptUpdate.app (enc_update_env o len (Some (N.max have n)))) <> CKR_BUFFER_TOO_SMALL.
Proof. exact enc_update_announced_length_suffices. Qed.
Print Assumptions C12_enc_update_announced_length_suffices.

Theorem C12_dec_single_is_code : forall (o : symop) (len : N) (buf : obuf),
  so_enc o = false ->
  let r := sym_single o len buf in
  normr (SymDecrypt.app (dec_single_env o len buf)) = (r_rv r, eff_of r).
Proof. exact dec_single_is_code. Qed.
Print Assumptions C12_dec_single_is_code.

(* the output-length protocol proved about the regenerated functions themselves, for every behaviour of the crypto
   backend (OpHonest.v) *)

Theorem C12_SymEncryptUpdate_honest : forall (e : SymEncryptUpdate.env),
  honest (SymEncryptUpdate.deref_pulEncryptedDataLen e) (SymEncryptUpdate.pEncryptedData e) (SymEncryptUpdate.app e) /\
  update_stays (SymEncryptUpdate.app e).
Proof. intros e. apply (shaped_honest _ _ false). destruct e. SymEncryptUpdate.open_env. paths. Qed.
Print Assumptions C12_SymEncryptUpdate_honest.

Theorem C12_SymDecryptUpdate_honest : forall (e : SymDecryptUpdate.env),
  honest (SymDecryptUpdate.deref_pDataLen e) (SymDecryptUpdate.pData e) (SymDecryptUpdate.app e) /\
  update_stays (SymDecryptUpdate.app e).
Proof. intros e. apply (shaped_honest _ _ false). destruct e. SymDecryptUpdate.open_env. paths. Qed.
Print Assumptions C12_SymDecryptUpdate_honest.

Theorem C12_SymEncryptFinal_honest : forall (e : SymEncryptFinal.env),
  honest (SymEncryptFinal.deref_pulEncryptedDataLen e) (SymEncryptFinal.pEncryptedData e) (SymEncryptFinal.app e) /\
  final_ends (SymEncryptFinal.pEncryptedData e) (SymEncryptFinal.app e).
Proof. intros e. apply (shaped_honest _ _ true). destruct e. SymEncryptFinal.open_env. paths. Qed.
Print Assumptions C12_SymEncryptFinal_honest.

Theorem C12_SymDecryptFinal_honest : forall (e : SymDecryptFinal.env),
  honest (SymDecryptFinal.deref_pulDecryptedDataLen e) (SymDecryptFinal.pDecryptedData e) (SymDecryptFinal.app e) /\
  final_ends (SymDecryptFinal.pDecryptedData e) (SymDecryptFinal.app e).
Proof. intros e. apply (shaped_honest _ _ true). destruct e. SymDecryptFinal.open_env. paths. Qed.
Print Assumptions C12_SymDecryptFinal_honest.

Theorem C12_SymEncrypt_honest : forall (e : SymEncrypt.env),
  honest (SymEncrypt.deref_pulEncryptedDataLen e) (SymEncrypt.pEncryptedData e) (SymEncrypt.app e) /\
  final_ends (SymEncrypt.pEncryptedData e) (SymEncrypt.app e).
Proof. intros e. apply (shaped_honest _ _ true). destruct e. SymEncrypt.open_env. paths. Qed.
Print Assumptions C12_SymEncrypt_honest.

Theorem C12_SymDecrypt_honest : forall (e : SymDecrypt.env),
  honest (SymDecrypt.deref_pulDataLen e) (SymDecrypt.pData e) (SymDecrypt.app e) /\
  final_ends (SymDecrypt.pData e) (SymDecrypt.app e).
Proof. intros e. apply (shaped_honest _ _ true). destruct e. SymDecrypt.open_env. paths. Qed.
Print Assumptions C12_SymDecrypt_honest.

Theorem C12_AsymEncrypt_honest : forall (e : AsymEncrypt.env),
  honest (AsymEncrypt.deref_pulEncryptedDataLen e) (AsymEncrypt.pEncryptedData e) (AsymEncrypt.app e) /\
  final_ends (AsymEncrypt.pEncryptedData e) (AsymEncrypt.app e).
Proof. intros e. apply (shaped_honest _ _ true). destruct e. AsymEncrypt.open_env. paths. Qed.
Print Assumptions C12_AsymEncrypt_honest.

Theorem C12_AsymDecrypt_honest : forall (e : AsymDecrypt.env),
  honest (AsymDecrypt.deref_pulDataLen e) (AsymDecrypt.pData e) (AsymDecrypt.app e) /\
  final_ends (AsymDecrypt.pData e) (AsymDecrypt.app e).
Proof. intros e. apply (shaped_honest _ _ true). destruct e. AsymDecrypt.open_env. paths. Qed.
Print Assumptions C12_AsymDecrypt_honest.

Theorem C12_MacSignFinal_honest : forall (e : MacSignFinal.env),
  honest (MacSignFinal.deref_pulSignatureLen e) (MacSignFinal.pSignature e) (MacSignFinal.app e) /\
  final_ends (MacSignFinal.pSignature e) (MacSignFinal.app e).
Proof. intros e. apply (shaped_honest _ _ true). destruct e. MacSignFinal.open_env. paths. Qed.
Print Assumptions C12_MacSignFinal_honest.

Theorem C12_MacSign_honest : forall (e : MacSign.env),
  honest (MacSign.deref_pulSignatureLen e) (MacSign.pSignature e) (MacSign.app e) /\
  final_ends (MacSign.pSignature e) (MacSign.app e).
Proof. intros e. apply (shaped_honest _ _ true). destruct e. MacSign.open_env. paths. Qed.
Print Assumptions C12_MacSign_honest.

Theorem C12_AsymSignFinal_honest : forall (e : AsymSignFinal.env),
  honest (AsymSignFinal.deref_pulSignatureLen e) (AsymSignFinal.pSignature e) (AsymSignFinal.app e) /\
  final_ends (AsymSignFinal.pSignature e) (AsymSignFinal.app e).
Proof. intros e. apply (shaped_honest _ _ true). destruct e. AsymSignFinal.open_env. paths. Qed.
Print Assumptions C12_AsymSignFinal_honest.
