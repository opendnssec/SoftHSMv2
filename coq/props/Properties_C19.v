(* Properties_C19 — object search is sound and complete. *)
From Coq Require Import List NArith Bool Lia.
From SoftHSM Require Import Gen_Const Gen_Pure Defs Core AccessFacts StepFacts Invariants HandleFacts FindFacts Gen_Entry EntryModel AssocFacts.
Import ListNotations.
Local Open Scope N_scope.

(* after a successful C_FindObjectsInit the session holds, in ascending duplicate-free order, exactly the
   handles of the objects of ITS token (token objects and session objects of all sessions) that it may
   see and that match every template entry — both inclusions *)
Theorem C19_findinit_sound_complete : forall (s : state) (h : N) (x : session) (tm : template) (prio : list bytes),
  st_init s = true -> get_session s h = Some x ->
  snd (step s (OFindInit h tm prio)) = RRv CKR_OK ->
  let s' := fst (step s (OFindInit h tm prio)) in
  exists x', alookup h (st_sessions s') = Some x' /\ s_op x' = SESSION_OP_FIND /\ ascending (s_find x') /\
    forall oh, In oh (s_find x') <->
      exists c, In c (candidates s (s_tok x)) /\
                cand_selected (tctx_of s (s_tok x)) (public_session s x) tm c = true /\
                find_obj_handle s' (fst (fst c)) = Some oh.
Proof. exact findinit_sound_complete. Qed.
Print Assumptions C19_findinit_sound_complete.

(* candidates are the objects of the session's own token only *)
Theorem C19_candidates_own_token : forall (s : state) (k oid : N) (istok : bool) (o : obj),
  In (oid, istok, o) (candidates s k) ->
  (istok = true /\ exists t, alookup k (st_tokens s) = Some t /\ In (oid, o) (t_objs t)) \/
  (istok = false /\ exists so, In (oid, so) (st_sobjs s) /\ so_tok so = k /\ so_obj so = o).
Proof.
  intros s k oid istok o.
  unfold candidates. intros H. apply in_app_or in H. destruct H as [H|H]; [left|right].
  - (* from the first list: the objects (a, b) of token k, tagged true *)
    destruct (alookup k (st_tokens s)) as [t|]; [|destruct H].
    apply in_map_iff in H. destruct H as ([a b] & Heq & H). injection Heq as <- <- <-. eauto.
  - (* from the second list: the session objects (a, b) that pass the filter on their token, tagged false *)
    apply in_map_iff in H. destruct H as ([a b] & Heq & H). injection Heq as <- <- <-.
    apply filter_In in H. destruct H as [H E]. apply N.eqb_eq in E. eauto.
Qed.
Print Assumptions C19_candidates_own_token.

Theorem C19_private_only_for_user : forall tc tm c, cand_selected tc true tm c = true -> o_private (snd c) = false.
Proof. exact public_session_hides_private. Qed.
Print Assumptions C19_private_only_for_user.
Theorem C19_public_session_iff : forall s x, public_session s x = true <-> tok_login s (s_tok x) <> LUser.
Proof. exact public_session_iff. Qed.
Print Assumptions C19_public_session_iff.

(* an empty template matches every visible object *)
Theorem C19_empty_template_matches_all : forall tc pub c, cand_selected tc pub [] c = negb (pub && o_private (snd c)).
Proof. intros tc pub c. unfold cand_selected. cbn. apply andb_true_r. Qed.
Print Assumptions C19_empty_template_matches_all.

(* C_FindObjects: each call returns the min(max, remaining) lowest remaining handles and removes them;
   any sequence of batch sizes (zeros included) partitions a prefix of the captured list *)
Theorem C19_find_batch : forall (s : state) (h mx : N) (x : session),
  st_init s = true -> get_session s h = Some x -> alookup h (st_sessions s) = Some x -> s_op x = SESSION_OP_FIND ->
  let n := N.to_nat (N.min mx (N.of_nat (length (s_find x)))) in
  snd (step s (OFind h mx)) = RFound (take n (s_find x)) /\
  exists x', alookup h (st_sessions (fst (step s (OFind h mx)))) = Some x' /\ s_find x' = drop n (s_find x) /\ s_op x' = SESSION_OP_FIND.
Proof.
  intros s h mx x Hi Hs Hx Hop. unfold step. rewrite Hi, Hs, Hop, N.eqb_refl, upd_session_eq. cbn [negb fst snd]. split.
  - (* the answer *) reflexivity.
  - (* the session's entry is replaced by its image, in which the handles handed out are dropped *)
    simp_state. rewrite alookup_lupd, N.eqb_refl, Hx. eexists. split; [reflexivity|]. split; reflexivity.
Qed.
Print Assumptions C19_find_batch.
Theorem C19_batches_partition : forall (sizes : list nat) (l : list N),
  concat (batches sizes l) = firstn (fold_right Nat.add 0%nat sizes) l.
Proof. exact batches_partition. Qed.
Print Assumptions C19_batches_partition.
Theorem C19_ascending_NoDup : forall l, ascending l -> NoDup l.
Proof.
  intros l.
  unfold ascending. induction 1 as [|x l Hs IH Hf]; constructor; [|exact IH].
  intro Hin. rewrite Forall_forall in Hf. apply Hf in Hin. lia.
Qed.
Print Assumptions C19_ascending_NoDup.

Theorem C19_findinit_code_passes_model_public : forall (s : state) (h : N) (x : session) (rest : bool -> N) (ptr cnt : N),
  (ptr <> 0 \/ cnt = 0) ->
  C_FindObjectsInit.app (findinit_env s h x rest ptr cnt)
  = if negb (s_op x =? SESSION_OP_NONE) then CKR_OPERATION_ACTIVE else rest (model_public (sess_state s x)).
Proof. exact findinit_code_passes_model_public. Qed.
Print Assumptions C19_findinit_code_passes_model_public.

(* the model's step refuses as the code does (an operation in progress) *)
Theorem C19_findinit_model_is_code : forall (s : state) (h : N) (x : session) (tm : template) (prio : list bytes),
  st_init s = true -> get_session s h = Some x ->
  negb (s_op x =? SESSION_OP_NONE) = true ->
  rv_of (snd (step s (OFindInit h tm prio))) = Some (C_FindObjectsInit.app (findinit_env s h x (fun _ => CKR_OK) 1 0)).
Proof.
  intros s h x tm prio Hi Hs Hop. rewrite findinit_code_passes_model_public by (left; discriminate).
  unfold step. rewrite Hi, Hs, Hop. reflexivity.
Qed.
Print Assumptions C19_findinit_model_is_code.

(* ... and otherwise runs its search with the flag the code hands on ([model_public]) *)
Theorem C19_findinit_model_uses_public : forall (s : state) (h : N) (x : session) (tm : template) (prio : list bytes),
  st_init s = true -> get_session s h = Some x -> (s_op x =? SESSION_OP_NONE) = true ->
  forallb (fun e => match te_val e with Some b => blen b =? te_len e | None => te_len e =? 0 end) tm = true ->
  step s (OFindInit h tm prio)
  = match find_loop (tctx_of s (s_tok x)) (model_public (sess_state s x)) (s_tok x) h tm (order_cands prio (candidates s (s_tok x))) s [] with
    | None => (s, RUnmodelled)
    | Some (s1, hs) => (upd_session s1 h (fun x => set_s_op x SESSION_OP_FIND hs), RRv CKR_OK)
    end.
Proof. exact findinit_model_uses_public. Qed.
Print Assumptions C19_findinit_model_uses_public.
