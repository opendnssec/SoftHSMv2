(* Properties_C17 — no input crashes the library.  Memory safety of C++ cannot be exhibited by a Gallina model; what CAN
   be proved is the arithmetic the safety depends on, in the models that are tied to the code by correspondence
   streams: lengths read from files never exceed the file (codec), un-padding never indexes before or beyond its
   input (padding model), reported and written output lengths stay within the caller's buffer and never wrap
   (operation model, machine arithmetic mod 2^64).  The rest is decided on the sanitizer build (K-fuzz). *)
From Coq Require Import List NArith Bool Arith Lia.
From SoftHSM Require Import Gen_Const Defs Codec CodecFacts CrashFacts Pad PadFacts OpModel OpFacts.
Import ListNotations.
Local Open Scope N_scope.

(* File::readByteString: the value and the rest partition what follows the 8-byte length; a length that exceeds the
   rest of the file is a read failure, never an allocation or a read beyond the end *)
Theorem C17_read_bytes_within_partial : forall b v r,
  read_bytes b = Some (v, r) -> (length b = 8 + length v + length r)%nat /\ v ++ r = skipn 8 b.
Proof.
  intros b v r. unfold read_bytes. rewrite read_ulong_spec.
  destruct (Nat.ltb_spec (length b) 8) as [Hb|Hb]; [discriminate|].
  generalize (skipn_length 8 b). generalize (skipn 8 b) as r0. intros r0 HL H.
  destruct (_ <=? _); [|discriminate H]. injection H as <- <-.
  rewrite <- Nat.add_assoc, <- app_length, firstn_skipn. split; [lia|reflexivity].
Qed.
Print Assumptions C17_read_bytes_within_partial.

Theorem C17_oversized_length_rejected : forall len r, len < 2 ^ 64 -> blen r < len -> read_bytes (be8 len ++ r) = None.
Proof.
  intros len r Hl Hlt. unfold read_bytes. rewrite (read_ulong_be8 len r Hl).
  destruct (len <=? blen r) eqn:E; [apply N.leb_le in E; lia|reflexivity].
Qed.
Print Assumptions C17_oversized_length_rejected.

(* every byte content of an object file gets a verdict: the decoder is a total function with three outcomes *)
Theorem C17_every_file_gets_a_verdict : forall b : bytes,
  refresh_file b = RUnchanged \/ refresh_file b = RInvalid \/ exists g o, refresh_file b = RValid g o.
Proof. intros b. destruct (refresh_file b) as [| |g o]; [left|right; left|right; right; exists g, o]; reflexivity. Qed.
Print Assumptions C17_every_file_gets_a_verdict.

(* RFC 5652 un-padding: the empty input is refused (no read of padded[-1]); an accepted input is the padding of its result *)
Theorem C17_unpad_empty_refused : forall bs, pkcs7_unpad bs [] = None.
Proof. exact unpad_empty. Qed.
Print Assumptions C17_unpad_empty_refused.
Theorem C17_unpad_is_inverse_of_pad : forall bs p d, (bs <= 255)%nat -> pkcs7_unpad bs p = Some d -> p = pkcs7_pad bs d.
Proof. exact unpad_sound. Qed.
Print Assumptions C17_unpad_is_inverse_of_pad.

(* output lengths (machine arithmetic): nothing is written beyond the announced buffer, and a call answered CKR_OK
   reports what it wrote (that the lengths a query reports have not wrapped: C12_reported_bounded_update, _final,
   _single) *)
Theorem C17_no_overwrite : forall (st : active) (c : call) (have : N),
  call_buf c = Some (Some have) ->
  match st with ASym o => so_tag o <= 16 /\ so_buf o < 34359738368 | _ => True end ->
  r_written (do_call st c) <= have /\
  (r_rv (do_call st c) = CKR_OK -> r_written (do_call st c) = 0 \/ r_len (do_call st c) = Some (r_written (do_call st c))).
Proof. exact no_overwrite. Qed.
Print Assumptions C17_no_overwrite.
