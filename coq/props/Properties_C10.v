(* Properties_C10 — the library's own logic around the primitives: feeding the input in arbitrary pieces
   gives the same result as the single-part call, decryption inverts encryption, for ECB / CBC / CBC-PAD
   with an ABSTRACT block cipher (any E; D with D (E b) = b).  Conformance of the primitives themselves
   (OpenSSL) is differential evidence (K-crypto), not a theorem. *)
From Coq Require Import List NArith Bool.
From SoftHSM Require Import Defs Pad PadFacts Modes ModesFacts.
Import ListNotations.

Theorem C10_multipart_eq_single_enc : forall (bs : nat) (E : bytes -> bytes), 1 <= bs ->
  forall (m : mode) (pad : bool) (iv : bytes) (parts : list bytes),
  enc_multi bs E (init m pad iv) parts = encrypt_all bs E m pad iv (concat parts).
Proof. exact multipart_eq_single_enc. Qed.
Print Assumptions C10_multipart_eq_single_enc.

Theorem C10_multipart_eq_single_dec : forall (bs : nat) (D : bytes -> bytes), 1 <= bs ->
  (forall b, length b = bs -> length (D b) = bs) ->
  forall (m : mode) (pad : bool) (iv : bytes) (parts : list bytes), (m = CBC -> length iv = bs) ->
  dec_multi bs D (init m pad iv) parts = decrypt_all bs D m pad iv (concat parts).
Proof. exact multipart_eq_single_dec. Qed.
Print Assumptions C10_multipart_eq_single_dec.

Theorem C10_roundtrip_multipart : forall (bs : nat) (E D : bytes -> bytes), 1 <= bs ->
  (forall b, length b = bs -> length (D b) = bs) -> (forall b, length b = bs -> length (E b) = bs) ->
  (forall b, length b = bs -> D (E b) = b) ->
  forall (m : mode) (pad : bool) (iv msg : bytes) (parts : list bytes),
  (pad = true -> bs <= 255) -> (pad = false -> Nat.modulo (length msg) bs = 0) -> (m = CBC -> length iv = bs) ->
  concat parts = msg ->
  exists c, enc_multi bs E (init m pad iv) parts = Some c /\
            (forall cparts, concat cparts = c -> dec_multi bs D (init m pad iv) cparts = Some msg).
Proof. exact roundtrip_multipart. Qed.
Print Assumptions C10_roundtrip_multipart.

(* digests and MACs: any update function that is a monoid action gives the same state for every split *)
Theorem C10_hash_updates_any_split : forall (S : Type) (f : S -> bytes -> S),
  (forall s a b, f (f s a) b = f s (a ++ b)) -> (forall s, f s [] = s) ->
  forall (parts : list bytes) (s : S), fold_left f parts s = f s (concat parts).
Proof. exact fold_update_concat. Qed.
Print Assumptions C10_hash_updates_any_split.

Theorem C10_padding_roundtrip : forall (bs : nat) (d : bytes), 1 <= bs <= 255 -> pkcs7_unpad bs (pkcs7_pad bs d) = Some d.
Proof. exact unpad_pad_gen. Qed.
Print Assumptions C10_padding_roundtrip.
