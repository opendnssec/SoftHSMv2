(* Properties_C02 — sensitive or unextractable key material never leaves the token in the clear.
   Theorems over the REGENERATED translations of P11Attribute::retrieve (guard prefix), the one-way flag
   updaters, the class table and C_WrapKey (gen/Gen_Pure.v, gen/Gen_Table.v, gen/Gen_Entry.v). *)
From Coq Require Import List NArith Bool String.
From SoftHSM Require Import Gen_Entry EntryFacts Gen_Const Gen_Pure Gen_Table AttrFacts.
Import ListNotations.
Local Open Scope N_scope.

(* every secret value attribute of every key class carries the "sensitive" check bit ck7 *)
Theorem C02_ck7_complete : forall cls a attrs,
  In (cls, attrs) secret_spec -> In a attrs -> exists c, class_attr_checks cls a = Some c /\ has c ck7 = true.
Proof.
  intros cls a attrs H1 H2. pose proof ck7_complete as H. unfold ck7_complete_check in H.
  rewrite forallb_forall in H. specialize (H _ H1). cbn [fst snd] in H. rewrite forallb_forall in H. specialize (H _ H2).
  destruct (class_attr_checks cls a) as [c|]; [exists c; auto|discriminate].
Qed.
Print Assumptions C02_ck7_complete.

(* for such an attribute of a sensitive or unextractable key, retrieve answers CKR_ATTRIBUTE_SENSITIVE, sets the
   length to CK_UNAVAILABLE_INFORMATION and does nothing else — whatever the rest of the function would do,
   whatever the buffer *)
Theorem C02_retrieve_guard :
  forall (isExtractable isSensitive : bool) (exists_ : N -> bool) (getAttribute : N -> N)
         (checks osobject size type : N) (rest : N * list (N * N)) (token : N) (isPrivate : bool) (pValue pulValueLen : N),
  osobject <> 0 -> pulValueLen <> 0 ->
  has checks ck7 = true -> (isSensitive = true \/ isExtractable = false) ->
  gen_P11Attribute__retrieve isExtractable isSensitive exists_ getAttribute checks osobject size type rest token isPrivate pValue pulValueLen
  = (CKR_ATTRIBUTE_SENSITIVE, [(LEN_TAG, CK_UNAVAILABLE_INFORMATION)]).
Proof. exact retrieve_guard. Qed.
Print Assumptions C02_retrieve_guard.

(* the protections cannot be removed by C_SetAttributeValue or C_CopyObject *)
Theorem C02_sensitive_one_way : forall (v : N) (getb : N -> bool -> bool) (ty pv len op : N),
  is_set_or_copy op = true -> getb CKA_SENSITIVE false = true ->
  gen_P11AttrSensitive__updateAttr v getb ty pv len op = (CKR_ATTRIBUTE_READ_ONLY, []).
Proof.
  intros v getb ty pv len op.
  unfold is_set_or_copy, gen_P11AttrSensitive__updateAttr. cbv [OBJECT_OP_SET OBJECT_OP_COPY CKA_SENSITIVE].
  intros Ho Hg. rewrite Ho, Hg. reflexivity.
Qed.
Print Assumptions C02_sensitive_one_way.
Theorem C02_extractable_one_way : forall (v : N) (getb : N -> bool -> bool) (ty pv len op : N),
  is_set_or_copy op = true -> getb CKA_EXTRACTABLE false = false ->
  gen_P11AttrExtractable__updateAttr v getb ty pv len op = (CKR_ATTRIBUTE_READ_ONLY, []).
Proof.
  intros v getb ty pv len op.
  unfold is_set_or_copy, gen_P11AttrExtractable__updateAttr. cbv [OBJECT_OP_SET OBJECT_OP_COPY CKA_EXTRACTABLE].
  intros Ho Hg. rewrite Ho, Hg. reflexivity.
Qed.
Print Assumptions C02_extractable_one_way.
Theorem C02_wrap_with_trusted_one_way : forall (v : N) (getb : N -> bool -> bool) (ty pv len op : N),
  is_set_or_copy op = true -> getb CKA_WRAP_WITH_TRUSTED false = true ->
  gen_P11AttrWrapWithTrusted__updateAttr v getb ty pv len op = (CKR_ATTRIBUTE_READ_ONLY, []).
Proof.
  intros v getb ty pv len op.
  unfold is_set_or_copy, gen_P11AttrWrapWithTrusted__updateAttr. cbv [OBJECT_OP_SET OBJECT_OP_COPY CKA_WRAP_WITH_TRUSTED].
  intros Ho Hg. rewrite Ho, Hg. reflexivity.
Qed.
Print Assumptions C02_wrap_with_trusted_one_way.

(* these updaters are the ones bound to the three flags in every class *)
Theorem C02_flag_updaters_bound : flag_rows_check = true.
Proof. vm_compute. reflexivity. Qed.
Print Assumptions C02_flag_updaters_bound.

(* C_WrapKey (regenerated): an unextractable key is never wrapped, a WRAP_WITH_TRUSTED key only under a trusted
   wrapping key *)
Theorem C02_WrapKey_refuses : forall (e : C_WrapKey.env),
  bounded (C_WrapKey.haveRead e) -> bounded1 (C_WrapKey.MechParamCheckRSAPKCSOAEP e) -> C_WrapKey.zz_rest e = SENTINEL ->
  C_WrapKey.app e = SENTINEL ->
  let kgb := C_WrapKey.key_getBooleanValue e in let wgb := C_WrapKey.wrapKey_getBooleanValue e in
  let wgu := C_WrapKey.wrapKey_getUnsignedLongValue e in let mech := C_WrapKey.pMechanism_mechanism e in
  let hr := C_WrapKey.haveRead e in let sst := C_WrapKey.session_getState e in
  kgb CKA_EXTRACTABLE false = true /\
  (kgb CKA_WRAP_WITH_TRUSTED false = true -> wgb CKA_TRUSTED false = true) /\
  wgb CKA_WRAP false = true /\
  C_WrapKey.isMechanismPermitted e (C_WrapKey.handleManager_getObject e (C_WrapKey.hWrappingKey e)) (C_WrapKey.pMechanism e) = true /\
  hr sst (if wgb CKA_TOKEN false then 1 else 0) (if wgb CKA_PRIVATE true then 1 else 0) = CKR_OK /\
  hr sst (if kgb CKA_TOKEN false then 1 else 0) (if kgb CKA_PRIVATE true then 1 else 0) = CKR_OK /\
  ((mech = CKM_AES_KEY_WRAP \/ mech = CKM_AES_KEY_WRAP_PAD) -> wgu CKA_CLASS CKO_VENDOR_DEFINED = CKO_SECRET_KEY /\ wgu CKA_KEY_TYPE CKK_VENDOR_DEFINED = CKK_AES) /\
  ((mech = CKM_RSA_PKCS \/ mech = CKM_RSA_PKCS_OAEP) -> wgu CKA_CLASS CKO_VENDOR_DEFINED = CKO_PUBLIC_KEY /\ wgu CKA_KEY_TYPE CKK_VENDOR_DEFINED = CKK_RSA).
Proof. exact WrapKey_guards. Qed.
Print Assumptions C02_WrapKey_refuses.
