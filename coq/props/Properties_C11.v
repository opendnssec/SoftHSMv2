(* Properties_C11 — handles are never reused and die exactly with what they denote. *)
From Coq Require Import List NArith Bool Lia.
From SoftHSM Require Import Gen_Const Gen_Pure Defs Core AccessFacts StepFacts Invariants HandleFacts.
Import ListNotations.
Local Open Scope N_scope.

(* over ANY history: live handle values lie in 1..counter and are pairwise distinct *)
Theorem C11_handle_table_invariant : forall ops : list op, inv_handles (exec init_state ops).
Proof. intros ops. apply exec_inv_handles. exact inv_handles_init. Qed.
Print Assumptions C11_handle_table_invariant.

(* the counter never decreases while the library stays initialised *)
Theorem C11_counter_monotone : forall (s : state) (o : op),
  inv_handles s -> is_restart o = false -> st_counter s <= st_counter (fst (step s o)).
Proof. intros s o H Hr. exact (proj1 (proj2 (step_inv_handles s o H) Hr)). Qed.
Print Assumptions C11_counter_monotone.

(* a valid handle always denotes the same session or object *)
Theorem C11_denotation_stable : forall (s : state) (o : op) (h : N) (e e' : hentry),
  inv_handles s -> is_restart o = false ->
  alookup h (st_handles s) = Some e -> alookup h (st_handles (fst (step s o))) = Some e' -> e' = e.
Proof. exact denotation_stable. Qed.
Print Assumptions C11_denotation_stable.

(* a handle value that is dead (purged, or below the counter and not live) is never valid again, over
   any history without re-initialisation: no handle value is issued twice *)
Theorem C11_never_reused : forall (ops : list op) (s : state) (h : N),
  inv_handles s -> no_restart ops = true -> h <= st_counter s -> alookup h (st_handles s) = None ->
  alookup h (st_handles (exec s ops)) = None.
Proof.
  intros ops s h Hinv Hnr Hle Hd.
  refine (proj2 (proj2 (proj2 (exec_along (fun s r => inv_handles s /\ no_restart r = true /\ h <= st_counter s /\ alookup h (st_handles s) = None)
                                          _ ops s (conj Hinv (conj Hnr (conj Hle Hd))))))).
  clear. intros s o r (Hinv & Hnr & Hle & Hd). cbn in Hnr. apply andb_true_iff in Hnr. destruct Hnr as [Ho Hr]. apply negb_true_iff in Ho.
  destruct (step_inv_handles s o Hinv) as [Hinv' Hx]. refine (conj Hinv' (conj Hr (conj _ _))); [destruct (Hx Ho); lia|apply dead_stays_dead; assumption].
Qed.
Print Assumptions C11_never_reused.

(* exactly the affected handles die *)
Theorem C11_logout_purge_exact : forall (s : state) (h : N) (x : session),
  st_init s = true -> get_session s h = Some x ->
  st_handles (fst (step s (OLogout h))) =
  filter (fun p => negb ((h_kind (snd p) =? CKH_OBJECT) && (h_tok (snd p) =? s_tok x) && h_priv (snd p))) (st_handles s).
Proof. intros s h x Hi Hs. rewrite (step_logout s h x Hi Hs). reflexivity. Qed.
Print Assumptions C11_logout_purge_exact.
Theorem C11_closeall_purge_exact : forall (s : state) (k : N),
  st_init s = true -> amem k (st_tokens s) = true ->
  st_handles (fst (step s (OCloseAll (TTok k)))) = filter (fun p => negb (h_tok (snd p) =? k)) (st_handles s).
Proof. intros s k Hi Hk. rewrite (step_closeall s k Hi Hk), close_all_eq. reflexivity. Qed.
Print Assumptions C11_closeall_purge_exact.
Theorem C11_close_purge_exact : forall (s : state) (h : N) (x : session),
  st_init s = true -> get_session s h = Some x ->
  st_handles (fst (step s (OClose h))) =
  if other_session_on s (s_tok x) h
  then filter (fun p => negb ((fst p =? h) || (h_kind (snd p) =? CKH_OBJECT) && (h_sess (snd p) =? h))) (st_handles s)
  else filter (fun p => negb (h_tok (snd p) =? s_tok x)) (st_handles s).
Proof.
  intros s h x Hi Hs. rewrite (step_close s h x Hi Hs), close_all_eq. destruct (other_session_on s (s_tok x) h); reflexivity.
Qed.
Print Assumptions C11_close_purge_exact.
Theorem C11_destroy_purge_exact : forall (s : state) (h oh : N),
  snd (step s (ODestroy h oh)) = RRv CKR_OK ->
  st_handles (fst (step s (ODestroy h oh))) = filter (fun p => negb (fst p =? oh)) (st_handles s).
Proof.
  intros s h oh Hok. destruct (step_destroy s h oh Hok) as (e & l & ob & _ & ->). rewrite del_object_eq. destruct l; reflexivity.
Qed.
Print Assumptions C11_destroy_purge_exact.

(* dead handles are rejected as invalid by every modelled entry point *)
Theorem C11_dead_session_rejected : forall (s : state) (o : op),
  st_init s = true ->
  match o with
  | OClose h | OSInfo h | OLogout h | OLogin h _ _ | OInitPin h _ | OSetPin h _ _ | OCreate h _ | OCopy h _ _ | ODestroy h _
  | OObjSize h _ | OGetAttr h _ _ | OSetAttr h _ _ | OFindInit h _ _ | OFind h _ | OFindFinal h | OUseInit _ h _ =>
      get_session s h = None -> rv_of (snd (step s o)) = Some CKR_SESSION_HANDLE_INVALID
  | _ => True
  end.
Proof.
  intros s o Hi. destruct o; try exact I; intros Hs; unfold step; rewrite Hi; cbn [negb]; cbv iota; rewrite Hs; reflexivity.
Qed.
Print Assumptions C11_dead_session_rejected.
Theorem C11_dead_object_rejected : forall (s : state) (o : op),
  st_init s = true ->
  match o with
  | OCopy h oh _ | ODestroy h oh | OObjSize h oh | OGetAttr h oh _ | OSetAttr h oh _ =>
      get_session s h <> None -> get_object s oh = None -> rv_of (snd (step s o)) = Some CKR_OBJECT_HANDLE_INVALID
  | _ => True
  end.
Proof.
  intros s o Hi. destruct o; try exact I; intros Hs Ho; unfold step; rewrite Hi; cbn [negb]; cbv iota;
  destruct (get_session s h); try congruence; rewrite Ho; reflexivity.
Qed.
Print Assumptions C11_dead_object_rejected.

From SoftHSM Require Import Gen_Keys KeyGenSpec KeyGenFacts.

(* the five secret-key generators, regenerated whole in trace mode (gen/Gen_Keys.v, proofs in KeyGenFacts.v): the only
   handle they ever unregister and the only object they ever destroy are the ones CreateObject just gave them - never
   what the caller's handle variable held on entry *)
Theorem C11_generate_destroys_only_its_own_object :
  (forall (e : generateAES.env),
     (forall x, In (T_HMD, x) (snd (generateAES.app e)) -> x = generateAES.CreateObject_sets_phKey e) /\
     (forall o, In (T_OBJD, o) (snd (generateAES.app e)) -> o = generateAES.handleManager_getObject e (generateAES.CreateObject_sets_phKey e))) /\
  (forall (e : generateDES.env),
     (forall x, In (T_HMD, x) (snd (generateDES.app e)) -> x = generateDES.CreateObject_sets_phKey e) /\
     (forall o, In (T_OBJD, o) (snd (generateDES.app e)) -> o = generateDES.handleManager_getObject e (generateDES.CreateObject_sets_phKey e))) /\
  (forall (e : generateDES2.env),
     (forall x, In (T_HMD, x) (snd (generateDES2.app e)) -> x = generateDES2.CreateObject_sets_phKey e) /\
     (forall o, In (T_OBJD, o) (snd (generateDES2.app e)) -> o = generateDES2.handleManager_getObject e (generateDES2.CreateObject_sets_phKey e))) /\
  (forall (e : generateDES3.env),
     (forall x, In (T_HMD, x) (snd (generateDES3.app e)) -> x = generateDES3.CreateObject_sets_phKey e) /\
     (forall o, In (T_OBJD, o) (snd (generateDES3.app e)) -> o = generateDES3.handleManager_getObject e (generateDES3.CreateObject_sets_phKey e))) /\
  (forall (e : generateGeneric.env),
     (forall x, In (T_HMD, x) (snd (generateGeneric.app e)) -> x = generateGeneric.CreateObject_sets_phKey e) /\
     (forall o, In (T_OBJD, o) (snd (generateGeneric.app e)) -> o = generateGeneric.handleManager_getObject e (generateGeneric.CreateObject_sets_phKey e))).
Proof. exact generated_destroys_only_its_own. Qed.
Print Assumptions C11_generate_destroys_only_its_own_object.

(* C_UnwrapKey regenerated whole (gen/Gen_Keys.v): last two clauses - the only handle it ever unregisters and the only
   object it ever destroys are the ones CreateObject just gave it *)
Theorem C11_unwrap_destroys_only_its_own_object : forall (e : C_UnwrapKey.env),
  let h := C_UnwrapKey.CreateObject_sets_hKey e in let g := C_UnwrapKey.handleManager_getObject e in
  (fst (C_UnwrapKey.app e) <> 0 -> In (T_CREATE, OBJECT_OP_UNWRAP) (snd (C_UnwrapKey.app e)) -> h <> 0 -> exists pre, snd (C_UnwrapKey.app e) = cleanup OUT_hKey h g ++ pre) /\
  (fst (C_UnwrapKey.app e) <> 0 -> last_out OUT_hKey (snd (C_UnwrapKey.app e)) = Some 0 \/ last_out OUT_hKey (snd (C_UnwrapKey.app e)) = None) /\
  (fst (C_UnwrapKey.app e) = 0 -> (forall t v, In (t, v) (snd (C_UnwrapKey.app e)) -> t <> T_HMD /\ t <> T_OBJD /\ t <> T_ABORT) /\
     In (T_CREATE, OBJECT_OP_UNWRAP) (snd (C_UnwrapKey.app e)) /\ In (T_TXS, g h) (snd (C_UnwrapKey.app e)) /\ In (T_COMMIT, g h) (snd (C_UnwrapKey.app e))) /\
  (forall x, In (T_HMD, x) (snd (C_UnwrapKey.app e)) -> x = h) /\
  (forall o, In (T_OBJD, o) (snd (C_UnwrapKey.app e)) -> o = g h).
Proof. exact unwrap_failure_undoes_success_commits. Qed.
Print Assumptions C11_unwrap_destroys_only_its_own_object.

(* The handle manager itself (coq/Conc/HandleLife.v, tied to HandleManager.cpp by K-handle): handles die exactly with
   what they denote, and a dead handle is never returned again, over every sequence of calls. *)
From SoftHSM Require HandleLife HandleLifeFacts.

Theorem C11_manager_dead_handle_never_returned :
  forall (xs : list HandleLife.op) (m : HandleLife.mgr) (h : N) (x : HandleLife.op),
  0 < h -> h <= HandleLife.ctr m -> ~ HandleLife.live m h -> snd (HandleLife.step (HandleLife.run m xs) x) <> h.
Proof. exact HandleLife.dead_handle_never_returned. Qed.
Print Assumptions C11_manager_dead_handle_never_returned.

Theorem C11_manager_destroy_exact : forall m h e,
  In e (HandleLife.handles (fst (HandleLife.step m (HandleLife.DestroyObject h)))) <->
  In e (HandleLife.handles m) /\ ((HandleLife.eh e =? h) && HandleLife.isobj e = false).
Proof. exact HandleLifeFacts.destroy_exact. Qed.
Print Assumptions C11_manager_destroy_exact.

Theorem C11_manager_logout_exact : forall m slot e,
  In e (HandleLife.handles (fst (HandleLife.step m (HandleLife.TokenLoggedOut slot)))) <->
  In e (HandleLife.handles m) /\ (HandleLife.isobj e && (HandleLife.eslot e =? slot) && HandleLife.epriv e = false).
Proof. exact HandleLifeFacts.logout_exact. Qed.
Print Assumptions C11_manager_logout_exact.

Theorem C11_manager_close_all_exact : forall m slot e,
  In e (HandleLife.handles (fst (HandleLife.step m (HandleLife.AllSessionsClosed slot)))) <->
  In e (HandleLife.handles m) /\ (HandleLife.eslot e =? slot) = false.
Proof. exact HandleLifeFacts.all_closed_exact. Qed.
Print Assumptions C11_manager_close_all_exact.

Theorem C11_manager_session_closed_kills_its_objects : forall m h s e,
  HandleLife.find_h h (HandleLife.handles m) = Some s -> HandleLife.issess s = true ->
  In e (HandleLife.handles (fst (HandleLife.step m (HandleLife.SessionClosed h)))) ->
  ~ (HandleLife.isobj e = true /\ HandleLife.esess e = h) /\ ~ (HandleLife.issess e = true /\ HandleLife.eh e = h).
Proof. exact HandleLifeFacts.session_closed_kills_its_objects. Qed.
Print Assumptions C11_manager_session_closed_kills_its_objects.

Theorem C11_manager_session_closed_keeps_the_rest : forall m h s e,
  HandleLife.find_h h (HandleLife.handles m) = Some s -> HandleLife.issess s = true ->
  existsb (fun e' => HandleLife.issess e' && (HandleLife.eslot e' =? HandleLife.eslot s))
          (HandleLife.handles (HandleLife.remove_where (fun e' => ((HandleLife.eh e' =? h) && HandleLife.issess e') || (HandleLife.isobj e' && (HandleLife.esess e' =? h))) m)) = true ->
  In e (HandleLife.handles m) -> ((HandleLife.eh e =? h) && HandleLife.issess e) || (HandleLife.isobj e && (HandleLife.esess e =? h)) = false ->
  In e (HandleLife.handles (fst (HandleLife.step m (HandleLife.SessionClosed h)))).
Proof. exact HandleLifeFacts.session_closed_keeps_the_rest. Qed.
Print Assumptions C11_manager_session_closed_keeps_the_rest.

(* across slots the manager can give one pointer two live handles (also observed on the compiled class: see the comment
   at this example in Conc/HandleLifeFacts.v) *)
Theorem C11_manager_one_handle_per_object_refuted_across_slots :
  let xs := [HandleLife.AddObject 5 0 false 200; HandleLife.AddObject 6 0 false 200; HandleLife.AddObject 6 0 false 200; HandleLife.DestroyObject 1] in
  let m := HandleLife.run HandleLife.init xs in
  (snd (HandleLife.step m (HandleLife.AddObject 6 0 false 200)),
   map (fun e => (HandleLife.eh e, HandleLife.eslot e, HandleLife.eobj e)) (HandleLife.handles (fst (HandleLife.step m (HandleLife.AddObject 6 0 false 200)))))
  = (3, [(3, 6, 200); (2, 6, 200)]).
Proof. exact HandleLifeFacts.one_handle_per_object_refuted_across_slots. Qed.
Print Assumptions C11_manager_one_handle_per_object_refuted_across_slots.
