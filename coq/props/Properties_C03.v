(* Properties_C03 — session and login state machine follows the PKCS#11 rules. *)
From Coq Require Import List NArith Bool.
From SoftHSM Require Import Gen_Entry Gen_Token EntryModel Gen_Const Gen_Pure Defs Core AccessFacts StepFacts Invariants SessionSpec.
Import ListNotations.
Local Open Scope N_scope.

(* all sessions of a token report the same login state (for every state, reachable or not) *)
Theorem C03_same_login_state : forall (s : state) (x y : session),
  s_tok x = s_tok y -> login_class (sess_state s x) = login_class (sess_state s y).
Proof. exact same_login_state. Qed.
Print Assumptions C03_same_login_state.

(* after ANY history: no read-only session exists on a token whose SO is logged in *)
Theorem C03_no_ro_session_while_so : forall (ops : list op) (h : N) (x : session),
  In (h, x) (st_sessions (exec init_state ops)) ->
  tok_login (exec init_state ops) (s_tok x) = LSO -> s_rw x = true.
Proof. intros ops. exact (inv_so_rw_reachable ops). Qed.
Print Assumptions C03_no_ro_session_while_so.

(* C_Login succeeds exactly with the current PIN of the requested user, nobody logged in, and for the
   SO no read-only session *)
Theorem C03_login_ok_iff : forall (s : state) (h ut : N) (p : bytes) (x : session) (t : token),
  st_init s = true -> get_session s h = Some x -> alookup (s_tok x) (st_tokens s) = Some t ->
  (snd (step s (OLogin h ut (Some p))) = RRv CKR_OK <->
   (ut = CKU_SO /\ has_ro_session s (s_tok x) = false /\ t_login t = LNone /\ pin_ok (t_sopin t) p = true) \/
   (ut = CKU_USER /\ t_login t = LNone /\ exists up, t_userpin t = Some up /\ pin_ok up p = true)).
Proof. exact login_ok_iff. Qed.
Print Assumptions C03_login_ok_iff.

(* the SO cannot log in while an R/O session on the token exists *)
Theorem C03_so_login_refused_with_ro : forall (s : state) (h : N) (x : session) (p : bytes),
  st_init s = true -> get_session s h = Some x -> amem (s_tok x) (st_tokens s) = true ->
  has_ro_session s (s_tok x) = true ->
  step s (OLogin h CKU_SO (Some p)) = (s, RRv CKR_SESSION_READ_ONLY_EXISTS).
Proof.
  intros s h x p Hi Hs Hk Hro. unfold step. rewrite Hi. cbn [negb]. cbv iota. rewrite Hs.
  unfold amem in Hk. destruct (alookup (s_tok x) (st_tokens s)); [|discriminate].
  unfold has_ro_session in Hro. rewrite N.eqb_refl, Hro. reflexivity.
Qed.
Print Assumptions C03_so_login_refused_with_ro.

(* an R/O session cannot be opened while the SO is logged in *)
Theorem C03_ro_open_refused_while_so : forall (s : state) (k flags : N),
  st_init s = true -> amem k (st_tokens s) = true -> tok_login s k = LSO ->
  N.land flags CKF_SERIAL_SESSION <> 0 -> N.land flags CKF_RW_SESSION <> CKF_RW_SESSION ->
  step s (OOpen (TTok k) flags) = (s, RRv CKR_SESSION_READ_WRITE_SO_EXISTS).
Proof.
  intros s k flags Hi Hk Hso Hser Hrw. unfold step. rewrite Hi. cbn [negb]. cbv iota. unfold resolve. rewrite Hk.
  apply N.eqb_neq in Hser. rewrite Hser. apply N.eqb_neq in Hrw. rewrite Hrw, Hso. reflexivity.
Qed.
Print Assumptions C03_ro_open_refused_while_so.

(* C_Logout, C_CloseAllSessions, closing the last session: the token is public afterwards *)
Theorem C03_logout_public : forall (s : state) (h : N) (x : session),
  st_init s = true -> get_session s h = Some x -> tok_login (fst (step s (OLogout h))) (s_tok x) = LNone.
Proof. intros s h x Hi Hs. rewrite (step_logout s h x Hi Hs). apply (login_cleared s). reflexivity. Qed.
Print Assumptions C03_logout_public.

Theorem C03_closeall_public : forall (s : state) (k : N),
  st_init s = true -> amem k (st_tokens s) = true ->
  tok_login (fst (step s (OCloseAll (TTok k)))) k = LNone /\
  (forall p, In p (st_sessions (fst (step s (OCloseAll (TTok k))))) -> s_tok (snd p) <> k).
Proof.
  intros s k Hi Hk. rewrite (step_closeall s k Hi Hk), close_all_eq. split; [apply (login_cleared s); reflexivity|].
  intros p H. apply filter_In in H. destruct H as [_ H]. apply negb_true_iff, N.eqb_neq in H. exact H.
Qed.
Print Assumptions C03_closeall_public.

Theorem C03_close_last_public : forall (s : state) (h : N) (x : session),
  st_init s = true -> get_session s h = Some x -> other_session_on s (s_tok x) h = false ->
  tok_login (fst (step s (OClose h))) (s_tok x) = LNone.
Proof. intros s h x Hi Hs Ho. rewrite (step_close s h x Hi Hs), Ho, close_all_eq. apply (login_cleared s). reflexivity. Qed.
Print Assumptions C03_close_last_public.

Theorem C03_close_other_keeps_login : forall (s : state) (h : N) (x : session),
  st_init s = true -> get_session s h = Some x -> other_session_on s (s_tok x) h = true ->
  forall k, tok_login (fst (step s (OClose h))) k = tok_login s k.
Proof. intros s h x Hi Hs Ho k. rewrite (step_close s h x Hi Hs), Ho. reflexivity. Qed.
Print Assumptions C03_close_other_keeps_login.

(* a call that fails leaves sessions and login state (indeed the whole state) unchanged *)
Theorem C03_failure_changes_nothing : forall (s : state) (o : op) (rv : N),
  rv_of (snd (step s o)) = Some rv -> rv <> CKR_OK -> fst (step s o) = s.
Proof. exact fail_no_change. Qed.
Print Assumptions C03_failure_changes_nothing.

(* C_InitToken is refused while a session on the slot is open *)
Theorem C03_inittoken_refused_with_session : forall (s : state) (k : N) (pin : option bytes) (label : N),
  st_init s = true -> amem k (st_tokens s) = true ->
  existsb (fun p => s_tok (snd p) =? k) (st_sessions s) = true ->
  step s (OInitToken (TTok k) pin label) = (s, RRv CKR_SESSION_EXISTS).
Proof.
  intros s k pin label Hi Hk He. unfold step. rewrite Hi. cbn [negb]. cbv iota. unfold resolve. rewrite Hk, He. reflexivity.
Qed.
Print Assumptions C03_inittoken_refused_with_session.

(* The model's session / login decisions are the code's decisions: the return code of the model step equals the
   REGENERATED SoftHSM::C_Login composed with the regenerated Token::loginSO / Token::loginUser (gen/Gen_Entry.v,
   gen/Gen_Token.v) applied to the abstraction of the model state, and the guards of SessionManager::openSession are
   those of the model's C_OpenSession. *)
Theorem C03_login_chain_is_code : forall (s : state) (h : N) (x : session) (t : token) (utype : N) (p : bytes),
  st_init s = true -> get_session s h = Some x -> alookup (s_tok x) (st_tokens s) = Some t ->
  rv_of (snd (step s (OLogin h utype (Some p)))) =
  Some (C_Login.app (login_env_with s h x utype 1 (blen p)
          (fun _ => Token_loginSO.app (token_loginso_env t p)) (fun _ => Token_loginUser.app (token_loginuser_env t p)))).
Proof. exact login_chain_is_code. Qed.
Print Assumptions C03_login_chain_is_code.
Theorem C03_opensession_model_is_code : forall (s : state) (k flags : N) (lr : bool),
  st_init s = true -> amem k (st_tokens s) = true ->
  match snd (step s (OOpen (TTok k) flags)) with
  | RRv rv => rv = SessionManager_openSession.app (opensession_env s k flags lr)
  | RHandle _ => SessionManager_openSession.app (opensession_env s k flags lr) = CKR_OK
  | _ => False
  end.
Proof.
  intros s k flags lr Hi Hk. unfold step, resolve, opensession_env. rewrite Hi, Hk. SessionManager_openSession.open_env.
  cbv [CKF_SERIAL_SESSION CKF_RW_SESSION]. cbn [N.eqb negb].
  destruct (N.land flags 4 =? 0); [(* CKF_SERIAL_SESSION missing: refused *) reflexivity|].
  destruct (land2_cases flags) as [E|E]; rewrite E; cbn [N.eqb Pos.eqb negb andb].
  - (* CKF_RW_SESSION not set: an R/O session, refused while the SO is logged in *)
    destruct (is_so (tok_login s k)); [reflexivity|].
    (* the session is allocated; the code answers CKR_OK whichever way it leaves the loop *)
    destruct (add_handle s _); destruct lr; reflexivity.
  - (* CKF_RW_SESSION set: the session is allocated *)
    destruct (add_handle s _); destruct lr; reflexivity.
Qed.
Print Assumptions C03_opensession_model_is_code.
