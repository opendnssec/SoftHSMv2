(* Properties_C08 — attribute policy: read-only, one-way and history attributes.
   Theorems over the REGENERATED rule engine P11Attribute::update, the history / trusted / one-way updaters and the class
   table; the model's CKA_MODIFIABLE / CKA_DESTROYABLE guards are the code's (EntryModel.v); what the key generators and
   C_UnwrapKey store as history attributes (KeyGenFacts.v). *)
From Coq Require Import List NArith Bool String.
From SoftHSM Require Import Gen_Const Gen_Pure Gen_Table AttrFacts Gen_Entry Defs Core EntryModel.
Import ListNotations.
Local Open Scope N_scope.

Section Rule.
  Variables (isModifiable isTrusted : bool) (getul : N -> N -> N) (checks osobject size : N)
            (updateAttr : N -> bool -> N -> N -> N -> N) (token : N) (isPrivate : bool) (pValue len op : N).
  Let upd := gen_P11Attribute__update isModifiable isTrusted getul checks osobject size updateAttr token isPrivate pValue len op.

  Theorem C08_update_error_or_updater : is_error upd \/ upd = updateAttr token isPrivate pValue len op.
  Proof. apply update_error_or_updater. Qed.
  Theorem C08_set_needs_ck8_or_ck11 : op = OBJECT_OP_SET -> has checks ck8 = false -> has checks ck11 = false -> is_error upd.
  Proof. apply update_set_needs_ck8_or_ck11. Qed.
  Theorem C08_copy_needs_ck8_ck11_or_ck17 :
    op = OBJECT_OP_COPY -> has checks ck8 = false -> has checks ck11 = false -> has checks ck17 = false -> is_error upd.
  Proof. apply update_copy_needs_ck8_ck11_or_ck17. Qed.
  Theorem C08_prohibited_on_creation :
    (op = OBJECT_OP_CREATE /\ has checks ck2 = true) \/ (op = OBJECT_OP_GENERATE /\ has checks ck4 = true) \/
    (op = OBJECT_OP_UNWRAP /\ has checks ck6 = true) -> is_error upd.
  Proof. apply update_prohibited_on_creation. Qed.
  Theorem C08_unmodifiable : isModifiable = false -> op <> OBJECT_OP_GENERATE -> op <> OBJECT_OP_CREATE -> is_error upd.
  Proof. apply update_unmodifiable. Qed.
End Rule.
Print Assumptions C08_update_error_or_updater.
Print Assumptions C08_set_needs_ck8_or_ck11.
Print Assumptions C08_copy_needs_ck8_ck11_or_ck17.
Print Assumptions C08_prohibited_on_creation.
Print Assumptions C08_unmodifiable.

(* LOCAL, KEY_GEN_MECHANISM, ALWAYS_SENSITIVE, NEVER_EXTRACTABLE: their updaters refuse every call, and in every
   class they carry ck2|ck4|ck6 (|ck6 except for domain parameters) and none of ck8/ck11/ck17 *)
Theorem C08_history_attrs_refuse_everything :
  gen_P11AttrLocal__updateAttr = (CKR_ATTRIBUTE_READ_ONLY, []) /\
  gen_P11AttrKeyGenMechanism__updateAttr = (CKR_ATTRIBUTE_READ_ONLY, []) /\
  gen_P11AttrAlwaysSensitive__updateAttr = (CKR_ATTRIBUTE_READ_ONLY, []) /\
  gen_P11AttrNeverExtractable__updateAttr = (CKR_ATTRIBUTE_READ_ONLY, []).
Proof. repeat split; reflexivity. Qed.
Print Assumptions C08_history_attrs_refuse_everything.
Theorem C08_history_rows : history_rows_check = true.
Proof. vm_compute. reflexivity. Qed.
Print Assumptions C08_history_rows.

(* CLASS, KEY_TYPE, TOKEN, PRIVATE, MODIFIABLE, DESTROYABLE, COPYABLE, LOCAL are never ck8/ck11: C_SetAttributeValue
   cannot change them in any class *)
Theorem C08_readonly_flags : readonly_flags_check = true.
Proof. vm_compute. reflexivity. Qed.
Print Assumptions C08_readonly_flags.

(* CKA_TRUSTED becomes true only with the SO logged in *)
Theorem C08_trusted_only_so : forall (v ty : N) (so : bool) (token pv len : N) (w : list (N * N)),
  gen_P11AttrTrusted__updateAttr v ty so token pv len = (CKR_OK, w) -> In (ty, 1) w -> so = true.
Proof. exact trusted_only_so. Qed.
Print Assumptions C08_trusted_only_so.

(* the one-way updaters keep the history flags honest: switching SENSITIVE off clears ALWAYS_SENSITIVE, switching
   EXTRACTABLE on clears NEVER_EXTRACTABLE; ALWAYS_SENSITIVE is set only while generating / deriving.  The code has
   literals: op 5, 1, 4, 3 = OBJECT_OP_SET, _COPY, _GENERATE, _DERIVE; 259 = CKA_SENSITIVE, 354 = CKA_EXTRACTABLE,
   357 = CKA_ALWAYS_SENSITIVE, 356 = CKA_NEVER_EXTRACTABLE *)
Theorem C08_sensitive_effects : forall (v : N) (getb : N -> bool -> bool) (ty pv len op : N) (w : list (N * N)),
  gen_P11AttrSensitive__updateAttr v getb ty pv len op = (CKR_OK, w) ->
  (v = 0 /\ w = [(CKA_ALWAYS_SENSITIVE, 0); (ty, 0)]) \/
  (v <> 0 /\ (w = [(ty, 1)] \/ (((op =? OBJECT_OP_GENERATE) || (op =? OBJECT_OP_DERIVE)) = true /\ w = [(CKA_ALWAYS_SENSITIVE, 1); (ty, 1)]))).
Proof.
  intros v getb ty pv len op w.
  unfold gen_P11AttrSensitive__updateAttr. intros H.
  apply past_the_refusal in H; [|discriminate].
  destruct (negb (len =? 1)); [discriminate H|].        (* a value of another length is CKR_ATTRIBUTE_VALUE_INVALID *)
  destruct (N.eqb_spec v 0) as [Ev|Ev].
  - (* switched off: ALWAYS_SENSITIVE goes with it *)
    injection H as <-. left. split; [exact Ev | reflexivity].
  - right. split; [exact Ev|]. change ((op =? OBJECT_OP_GENERATE) || (op =? OBJECT_OP_DERIVE)) with ((op =? 4) || (op =? 3)).
    destruct ((op =? 4) || (op =? 3)).
    + (* switched on while generating or deriving: ALWAYS_SENSITIVE is set too *)
      injection H as <-. right. split; reflexivity.
    + (* switched on later: the flag alone *)
      injection H as <-. left. reflexivity.
Qed.
Print Assumptions C08_sensitive_effects.
Theorem C08_extractable_effects : forall (v : N) (getb : N -> bool -> bool) (ty pv len op : N) (w : list (N * N)),
  gen_P11AttrExtractable__updateAttr v getb ty pv len op = (CKR_OK, w) ->
  (v = 0 /\ w = [(ty, 0)]) \/ (v <> 0 /\ w = [(CKA_NEVER_EXTRACTABLE, 0); (ty, 1)]).
Proof.
  intros v getb ty pv len op w.
  unfold gen_P11AttrExtractable__updateAttr. intros H.
  apply past_the_refusal in H; [|discriminate].
  destruct (negb (len =? 1)); [discriminate H|].        (* a value of another length is CKR_ATTRIBUTE_VALUE_INVALID *)
  destruct (N.eqb_spec v 0) as [Ev|Ev].
  - (* switched off: the flag alone *)
    injection H as <-. left. split; [exact Ev | reflexivity].
  - (* switched on: NEVER_EXTRACTABLE is cleared *)
    injection H as <-. right. split; [exact Ev | reflexivity].
Qed.
Print Assumptions C08_extractable_effects.

(* C_SetAttributeValue refuses an object with CKA_MODIFIABLE false before it touches an attribute, C_DestroyObject one
   with CKA_DESTROYABLE false: the regenerated guards, in the model's terms *)
Theorem C08_setattr_code_guard : forall (s : state) (h oh : N) (x : session) (rest ptr cnt : N),
  ptr <> 0 ->
  C_SetAttributeValue.app (setattr_env s h oh x rest ptr cnt)
  = match get_object s oh with
    | None => CKR_OBJECT_HANDLE_INVALID
    | Some (_, _, ob) =>
        let rv := have_write (sess_state s x) (o_token ob) (o_private ob) in
        if negb (rv =? CKR_OK) then rv else if negb (obj_bool ob CKA_MODIFIABLE true) then CKR_ACTION_PROHIBITED else rest
    end.
Proof. exact setattr_code_guard. Qed.
Print Assumptions C08_setattr_code_guard.

Theorem C08_destroy_model_is_code : forall (s : state) (h oh : N) (x : session),
  st_init s = true -> get_session s h = Some x ->
  rv_of (snd (step s (ODestroy h oh))) = Some (C_DestroyObject.app (destroy_env s h oh x)).
Proof. exact destroy_model_is_code. Qed.
Print Assumptions C08_destroy_model_is_code.

(* imported here and not at the head: Gen_Keys has modules of the same names as Gen_Entry (C_UnwrapKey, deriveDH, ...) and
   KeyGenSpec a `has` of its own; from this line on the names mean those *)
From SoftHSM Require Import Gen_Keys KeyGenSpec KeyGenFacts.

(* the five secret-key generators, regenerated whole (gen/Gen_Keys.v): CKA_LOCAL true, CKA_ALWAYS_SENSITIVE = the new object's
   CKA_SENSITIVE, CKA_NEVER_EXTRACTABLE = not CKA_EXTRACTABLE, whenever written; a successful call has written them *)
Theorem C08_generated_key_history_attributes :
  (forall (e : generateAES.env),
     (forall v, In (CKA_LOCAL, v) (snd (generateAES.app e)) -> v = 1) /\
     (forall v, In (CKA_ALWAYS_SENSITIVE, v) (snd (generateAES.app e)) -> v = b2n (negb (generateAES.osobject_getBooleanValue e CKA_SENSITIVE false =? 0))) /\
     (forall v, In (CKA_NEVER_EXTRACTABLE, v) (snd (generateAES.app e)) -> v = b2n (generateAES.osobject_getBooleanValue e CKA_EXTRACTABLE false =? 0)) /\
     (fst (generateAES.app e) = 0 -> (exists v, In (CKA_VALUE, v) (snd (generateAES.app e))) /\ (exists v, In (CKA_LOCAL, v) (snd (generateAES.app e))) /\
                             (exists v, In (CKA_ALWAYS_SENSITIVE, v) (snd (generateAES.app e))) /\ (exists v, In (CKA_NEVER_EXTRACTABLE, v) (snd (generateAES.app e))))) /\
  (forall (e : generateDES.env),
     (forall v, In (CKA_LOCAL, v) (snd (generateDES.app e)) -> v = 1) /\
     (forall v, In (CKA_ALWAYS_SENSITIVE, v) (snd (generateDES.app e)) -> v = b2n (negb (generateDES.osobject_getBooleanValue e CKA_SENSITIVE false =? 0))) /\
     (forall v, In (CKA_NEVER_EXTRACTABLE, v) (snd (generateDES.app e)) -> v = b2n (generateDES.osobject_getBooleanValue e CKA_EXTRACTABLE false =? 0)) /\
     (fst (generateDES.app e) = 0 -> (exists v, In (CKA_VALUE, v) (snd (generateDES.app e))) /\ (exists v, In (CKA_LOCAL, v) (snd (generateDES.app e))) /\
                             (exists v, In (CKA_ALWAYS_SENSITIVE, v) (snd (generateDES.app e))) /\ (exists v, In (CKA_NEVER_EXTRACTABLE, v) (snd (generateDES.app e))))) /\
  (forall (e : generateDES2.env),
     (forall v, In (CKA_LOCAL, v) (snd (generateDES2.app e)) -> v = 1) /\
     (forall v, In (CKA_ALWAYS_SENSITIVE, v) (snd (generateDES2.app e)) -> v = b2n (negb (generateDES2.osobject_getBooleanValue e CKA_SENSITIVE false =? 0))) /\
     (forall v, In (CKA_NEVER_EXTRACTABLE, v) (snd (generateDES2.app e)) -> v = b2n (generateDES2.osobject_getBooleanValue e CKA_EXTRACTABLE false =? 0)) /\
     (fst (generateDES2.app e) = 0 -> (exists v, In (CKA_VALUE, v) (snd (generateDES2.app e))) /\ (exists v, In (CKA_LOCAL, v) (snd (generateDES2.app e))) /\
                             (exists v, In (CKA_ALWAYS_SENSITIVE, v) (snd (generateDES2.app e))) /\ (exists v, In (CKA_NEVER_EXTRACTABLE, v) (snd (generateDES2.app e))))) /\
  (forall (e : generateDES3.env),
     (forall v, In (CKA_LOCAL, v) (snd (generateDES3.app e)) -> v = 1) /\
     (forall v, In (CKA_ALWAYS_SENSITIVE, v) (snd (generateDES3.app e)) -> v = b2n (negb (generateDES3.osobject_getBooleanValue e CKA_SENSITIVE false =? 0))) /\
     (forall v, In (CKA_NEVER_EXTRACTABLE, v) (snd (generateDES3.app e)) -> v = b2n (generateDES3.osobject_getBooleanValue e CKA_EXTRACTABLE false =? 0)) /\
     (fst (generateDES3.app e) = 0 -> (exists v, In (CKA_VALUE, v) (snd (generateDES3.app e))) /\ (exists v, In (CKA_LOCAL, v) (snd (generateDES3.app e))) /\
                             (exists v, In (CKA_ALWAYS_SENSITIVE, v) (snd (generateDES3.app e))) /\ (exists v, In (CKA_NEVER_EXTRACTABLE, v) (snd (generateDES3.app e))))) /\
  (forall (e : generateGeneric.env),
     (forall v, In (CKA_LOCAL, v) (snd (generateGeneric.app e)) -> v = 1) /\
     (forall v, In (CKA_ALWAYS_SENSITIVE, v) (snd (generateGeneric.app e)) -> v = b2n (negb (generateGeneric.osobject_getBooleanValue e CKA_SENSITIVE false =? 0))) /\
     (forall v, In (CKA_NEVER_EXTRACTABLE, v) (snd (generateGeneric.app e)) -> v = b2n (generateGeneric.osobject_getBooleanValue e CKA_EXTRACTABLE false =? 0)) /\
     (fst (generateGeneric.app e) = 0 -> (exists v, In (CKA_VALUE, v) (snd (generateGeneric.app e))) /\ (exists v, In (CKA_LOCAL, v) (snd (generateGeneric.app e))) /\
                             (exists v, In (CKA_ALWAYS_SENSITIVE, v) (snd (generateGeneric.app e))) /\ (exists v, In (CKA_NEVER_EXTRACTABLE, v) (snd (generateGeneric.app e))))).
Proof. exact generated_history_attributes. Qed.
Print Assumptions C08_generated_key_history_attributes.

(* C_UnwrapKey regenerated whole (gen/Gen_Keys.v): an unwrapped key is stored with CKA_LOCAL, CKA_ALWAYS_SENSITIVE and
   CKA_NEVER_EXTRACTABLE false, and a successful call has written them *)
Theorem C08_unwrapped_key_history_attributes : forall (e : C_UnwrapKey.env),
  (forall v, In (CKA_VALUE, v) (snd (C_UnwrapKey.app e)) -> C_UnwrapKey.extractObjectInformation_gives_isPrivate e <> 0 -> exists x, v = C_UnwrapKey.token_encrypt_out_value e x) /\
  (forall v, In (CKA_LOCAL, v) (snd (C_UnwrapKey.app e)) -> v = 0) /\
  (forall v, In (CKA_ALWAYS_SENSITIVE, v) (snd (C_UnwrapKey.app e)) -> v = 0) /\
  (forall v, In (CKA_NEVER_EXTRACTABLE, v) (snd (C_UnwrapKey.app e)) -> v = 0) /\
  (fst (C_UnwrapKey.app e) = 0 -> (C_UnwrapKey.extractObjectInformation_gives_objClass e = CKO_SECRET_KEY -> exists v, In (CKA_VALUE, v) (snd (C_UnwrapKey.app e))) /\
     (exists v, In (CKA_LOCAL, v) (snd (C_UnwrapKey.app e))) /\ (exists v, In (CKA_ALWAYS_SENSITIVE, v) (snd (C_UnwrapKey.app e))) /\
     (exists v, In (CKA_NEVER_EXTRACTABLE, v) (snd (C_UnwrapKey.app e)))).
Proof. exact unwrapped_key_attributes. Qed.
Print Assumptions C08_unwrapped_key_history_attributes.
