(* Properties_C09 — a call that fails has no effect (core model: every modelled entry point, every state). *)
From Coq Require Import List NArith Bool.
From SoftHSM Require Import Gen_Const Gen_Pure Defs Core AccessFacts StepFacts FailFacts Gen_Entry EntryModel.
Import ListNotations.
Local Open Scope N_scope.

(* whatever the state (reachable or not), the session, the handles and the template: an answer other than CKR_OK
   leaves the WHOLE model state - every token's objects with every attribute value, the session objects, the
   handle table, the PINs, the login states - exactly as it was.  In particular no prefix of a rejected template is
   applied and no partially built object exists. *)
Theorem C09_failed_call_changes_nothing : forall (s : state) (o : op) (rv : N),
  rv_of (snd (step s o)) = Some rv -> rv <> CKR_OK -> fst (step s o) = s.
Proof. exact fail_no_change. Qed.
Print Assumptions C09_failed_call_changes_nothing.

(* along any history: the state after a run is the state after the run with the failing calls removed *)
Theorem C09_failed_calls_are_invisible : forall ops s, exec s ops = exec s (drop_failed s ops).
Proof.
  induction ops as [|o r IH]; intros s; [reflexivity|].
  cbn [drop_failed]. unfold succeeded. rewrite exec_cons.
  destruct (rv_of (snd (step s o))) as [rv|] eqn:E; [destruct (N.eqb_spec rv CKR_OK) as [_|Hne]|]; rewrite ?exec_cons; try apply IH.
  rewrite (fail_no_change s o rv E Hne). apply IH.
Qed.
Print Assumptions C09_failed_calls_are_invisible.

Theorem C09_destroy_model_is_code : forall (s : state) (h oh : N) (x : session),
  st_init s = true -> get_session s h = Some x ->
  rv_of (snd (step s (ODestroy h oh))) = Some (C_DestroyObject.app (destroy_env s h oh x)).
Proof. exact destroy_model_is_code. Qed.
Print Assumptions C09_destroy_model_is_code.

Theorem C09_setattr_model_refusal_is_code : forall (s : state) (h oh : N) (x : session) (tm : template) (rest : N),
  st_init s = true -> get_session s h = Some x ->
  (match get_object s oh with None => True
   | Some (_, _, ob) => negb (have_write (sess_state s x) (o_token ob) (o_private ob) =? CKR_OK) = true
                        \/ obj_bool ob CKA_MODIFIABLE true = false end) ->
  rv_of (snd (step s (OSetAttr h oh tm))) = Some (C_SetAttributeValue.app (setattr_env s h oh x rest 1 (N.of_nat (length tm)))).
Proof. exact setattr_model_refusal_is_code. Qed.
Print Assumptions C09_setattr_model_refusal_is_code.

(* The functions that create key objects, regenerated whole in trace mode (gen/Gen_Keys.v, proofs in KeyGenFacts.v).
   Imported here and not at the head: Gen_Keys has modules of the same names as Gen_Entry (C_UnwrapKey, deriveDH, ...)
   and KeyGenSpec a `has` of its own; from this line on the names mean those. *)
From SoftHSM Require Import Gen_Keys KeyGenSpec KG_tails KeyGenFacts.

(* the five secret-key generators, for every behaviour of the store and the crypto backend: a call that fails after
   CreateObject ends by looking the object up, unregistering its handle, destroying it and handing the caller
   CK_INVALID_HANDLE (in this order); a call that succeeds destroys and aborts nothing and has committed *)
Theorem C09_generate_failure_undoes_the_object :
  (forall (e : generateAES.env), let h := generateAES.CreateObject_sets_phKey e in let g := generateAES.handleManager_getObject e in
     (fst (generateAES.app e) <> 0 -> In (T_CREATE, OBJECT_OP_GENERATE) (snd (generateAES.app e)) -> h <> 0 -> exists pre, snd (generateAES.app e) = cleanup OUT_phKey h g ++ pre) /\
     (fst (generateAES.app e) <> 0 -> last_out OUT_phKey (snd (generateAES.app e)) = Some 0 \/ last_out OUT_phKey (snd (generateAES.app e)) = None) /\
     (fst (generateAES.app e) = 0 -> (forall t v, In (t, v) (snd (generateAES.app e)) -> t <> T_HMD /\ t <> T_OBJD /\ t <> T_ABORT) /\
        In (T_CREATE, OBJECT_OP_GENERATE) (snd (generateAES.app e)) /\ In (T_TXS, g h) (snd (generateAES.app e)) /\ In (T_COMMIT, g h) (snd (generateAES.app e)))) /\
  (forall (e : generateDES.env), let h := generateDES.CreateObject_sets_phKey e in let g := generateDES.handleManager_getObject e in
     (fst (generateDES.app e) <> 0 -> In (T_CREATE, OBJECT_OP_GENERATE) (snd (generateDES.app e)) -> h <> 0 -> exists pre, snd (generateDES.app e) = cleanup OUT_phKey h g ++ pre) /\
     (fst (generateDES.app e) <> 0 -> last_out OUT_phKey (snd (generateDES.app e)) = Some 0 \/ last_out OUT_phKey (snd (generateDES.app e)) = None) /\
     (fst (generateDES.app e) = 0 -> (forall t v, In (t, v) (snd (generateDES.app e)) -> t <> T_HMD /\ t <> T_OBJD /\ t <> T_ABORT) /\
        In (T_CREATE, OBJECT_OP_GENERATE) (snd (generateDES.app e)) /\ In (T_TXS, g h) (snd (generateDES.app e)) /\ In (T_COMMIT, g h) (snd (generateDES.app e)))) /\
  (forall (e : generateDES2.env), let h := generateDES2.CreateObject_sets_phKey e in let g := generateDES2.handleManager_getObject e in
     (fst (generateDES2.app e) <> 0 -> In (T_CREATE, OBJECT_OP_GENERATE) (snd (generateDES2.app e)) -> h <> 0 -> exists pre, snd (generateDES2.app e) = cleanup OUT_phKey h g ++ pre) /\
     (fst (generateDES2.app e) <> 0 -> last_out OUT_phKey (snd (generateDES2.app e)) = Some 0 \/ last_out OUT_phKey (snd (generateDES2.app e)) = None) /\
     (fst (generateDES2.app e) = 0 -> (forall t v, In (t, v) (snd (generateDES2.app e)) -> t <> T_HMD /\ t <> T_OBJD /\ t <> T_ABORT) /\
        In (T_CREATE, OBJECT_OP_GENERATE) (snd (generateDES2.app e)) /\ In (T_TXS, g h) (snd (generateDES2.app e)) /\ In (T_COMMIT, g h) (snd (generateDES2.app e)))) /\
  (forall (e : generateDES3.env), let h := generateDES3.CreateObject_sets_phKey e in let g := generateDES3.handleManager_getObject e in
     (fst (generateDES3.app e) <> 0 -> In (T_CREATE, OBJECT_OP_GENERATE) (snd (generateDES3.app e)) -> h <> 0 -> exists pre, snd (generateDES3.app e) = cleanup OUT_phKey h g ++ pre) /\
     (fst (generateDES3.app e) <> 0 -> last_out OUT_phKey (snd (generateDES3.app e)) = Some 0 \/ last_out OUT_phKey (snd (generateDES3.app e)) = None) /\
     (fst (generateDES3.app e) = 0 -> (forall t v, In (t, v) (snd (generateDES3.app e)) -> t <> T_HMD /\ t <> T_OBJD /\ t <> T_ABORT) /\
        In (T_CREATE, OBJECT_OP_GENERATE) (snd (generateDES3.app e)) /\ In (T_TXS, g h) (snd (generateDES3.app e)) /\ In (T_COMMIT, g h) (snd (generateDES3.app e)))) /\
  (forall (e : generateGeneric.env), let h := generateGeneric.CreateObject_sets_phKey e in let g := generateGeneric.handleManager_getObject e in
     (fst (generateGeneric.app e) <> 0 -> In (T_CREATE, OBJECT_OP_GENERATE) (snd (generateGeneric.app e)) -> h <> 0 -> exists pre, snd (generateGeneric.app e) = cleanup OUT_phKey h g ++ pre) /\
     (fst (generateGeneric.app e) <> 0 -> last_out OUT_phKey (snd (generateGeneric.app e)) = Some 0 \/ last_out OUT_phKey (snd (generateGeneric.app e)) = None) /\
     (fst (generateGeneric.app e) = 0 -> (forall t v, In (t, v) (snd (generateGeneric.app e)) -> t <> T_HMD /\ t <> T_OBJD /\ t <> T_ABORT) /\
        In (T_CREATE, OBJECT_OP_GENERATE) (snd (generateGeneric.app e)) /\ In (T_TXS, g h) (snd (generateGeneric.app e)) /\ In (T_COMMIT, g h) (snd (generateGeneric.app e)))).
Proof. exact generated_failure_undoes_success_commits. Qed.
Print Assumptions C09_generate_failure_undoes_the_object.

(* C_UnwrapKey, for every behaviour of the store and the crypto backend: a call that fails after CreateObject ends by
   looking the object up, unregistering its handle, destroying it and handing the caller CK_INVALID_HANDLE; a call that
   succeeds destroys and aborts nothing and has committed; only the handle / object just created are ever touched *)
Theorem C09_unwrap_failure_undoes_the_object : forall (e : C_UnwrapKey.env),
  let h := C_UnwrapKey.CreateObject_sets_hKey e in let g := C_UnwrapKey.handleManager_getObject e in
  (fst (C_UnwrapKey.app e) <> 0 -> In (T_CREATE, OBJECT_OP_UNWRAP) (snd (C_UnwrapKey.app e)) -> h <> 0 -> exists pre, snd (C_UnwrapKey.app e) = cleanup OUT_hKey h g ++ pre) /\
  (fst (C_UnwrapKey.app e) <> 0 -> last_out OUT_hKey (snd (C_UnwrapKey.app e)) = Some 0 \/ last_out OUT_hKey (snd (C_UnwrapKey.app e)) = None) /\
  (fst (C_UnwrapKey.app e) = 0 -> (forall t v, In (t, v) (snd (C_UnwrapKey.app e)) -> t <> T_HMD /\ t <> T_OBJD /\ t <> T_ABORT) /\
     In (T_CREATE, OBJECT_OP_UNWRAP) (snd (C_UnwrapKey.app e)) /\ In (T_TXS, g h) (snd (C_UnwrapKey.app e)) /\ In (T_COMMIT, g h) (snd (C_UnwrapKey.app e))) /\
  (forall x, In (T_HMD, x) (snd (C_UnwrapKey.app e)) -> x = h) /\
  (forall o, In (T_OBJD, o) (snd (C_UnwrapKey.app e)) -> o = g h).
Proof. exact unwrap_failure_undoes_success_commits. Qed.
Print Assumptions C09_unwrap_failure_undoes_the_object.

(* PARTIAL (all 18 key-creating functions, including the key-pair generators and the derive functions, which are not
   executed symbolically to their end): the continuation that begins with `if (rv != CKR_OK)` and unregisters a handle
   - `<f>_tail`, picked from the regenerated code by translator/gen_kgproofs.py - returns rv unchanged and, when rv is
   not CKR_OK, performs for every handle variable that is not CK_INVALID_HANDLE exactly: look-up, unregistration,
   destruction of the object found, CK_INVALID_HANDLE to the caller.  Missing for the full statement: that every failing
   path reaches it (proved for six functions above). *)
Theorem C09_cleanup_tails_partial :
  (forall (e : generateAES.env) (drf_phKey : N) (rv : N) (acc : list (N * N)) (r : R), generateAES_tail e drf_phKey rv acc r ->
     r = (rv, (if rv =? 0 then [] else (if drf_phKey =? 0 then [] else cleanup 18446744073709551517 drf_phKey (generateAES.handleManager_getObject e))) ++ acc)) /\
  (forall (e : generateDES.env) (drf_phKey : N) (rv : N) (acc : list (N * N)) (r : R), generateDES_tail e drf_phKey rv acc r ->
     r = (rv, (if rv =? 0 then [] else (if drf_phKey =? 0 then [] else cleanup 18446744073709551517 drf_phKey (generateDES.handleManager_getObject e))) ++ acc)) /\
  (forall (e : generateDES2.env) (drf_phKey : N) (rv : N) (acc : list (N * N)) (r : R), generateDES2_tail e drf_phKey rv acc r ->
     r = (rv, (if rv =? 0 then [] else (if drf_phKey =? 0 then [] else cleanup 18446744073709551517 drf_phKey (generateDES2.handleManager_getObject e))) ++ acc)) /\
  (forall (e : generateDES3.env) (drf_phKey : N) (rv : N) (acc : list (N * N)) (r : R), generateDES3_tail e drf_phKey rv acc r ->
     r = (rv, (if rv =? 0 then [] else (if drf_phKey =? 0 then [] else cleanup 18446744073709551517 drf_phKey (generateDES3.handleManager_getObject e))) ++ acc)) /\
  (forall (e : generateGeneric.env) (drf_phKey : N) (rv : N) (acc : list (N * N)) (r : R), generateGeneric_tail e drf_phKey rv acc r ->
     r = (rv, (if rv =? 0 then [] else (if drf_phKey =? 0 then [] else cleanup 18446744073709551517 drf_phKey (generateGeneric.handleManager_getObject e))) ++ acc)) /\
  (forall (e : generateRSA.env) (drf_phPublicKey : N) (drf_phPrivateKey : N) (rv : N) (acc : list (N * N)) (r : R), generateRSA_tail e drf_phPublicKey drf_phPrivateKey rv acc r ->
     r = (rv, (if rv =? 0 then [] else (if drf_phPublicKey =? 0 then [] else cleanup 18446744073709551515 drf_phPublicKey (generateRSA.handleManager_getObject e)) ++ (if drf_phPrivateKey =? 0 then [] else cleanup 18446744073709551514 drf_phPrivateKey (generateRSA.handleManager_getObject e))) ++ acc)) /\
  (forall (e : generateDSA.env) (drf_phPublicKey : N) (drf_phPrivateKey : N) (rv : N) (acc : list (N * N)) (r : R), generateDSA_tail e drf_phPublicKey drf_phPrivateKey rv acc r ->
     r = (rv, (if rv =? 0 then [] else (if drf_phPublicKey =? 0 then [] else cleanup 18446744073709551515 drf_phPublicKey (generateDSA.handleManager_getObject e)) ++ (if drf_phPrivateKey =? 0 then [] else cleanup 18446744073709551514 drf_phPrivateKey (generateDSA.handleManager_getObject e))) ++ acc)) /\
  (forall (e : generateDSAParameters.env) (drf_phKey : N) (rv : N) (acc : list (N * N)) (r : R), generateDSAParameters_tail e drf_phKey rv acc r ->
     r = (rv, (if rv =? 0 then [] else (if drf_phKey =? 0 then [] else cleanup 18446744073709551517 drf_phKey (generateDSAParameters.handleManager_getObject e))) ++ acc)) /\
  (forall (e : generateEC.env) (drf_phPublicKey : N) (drf_phPrivateKey : N) (rv : N) (acc : list (N * N)) (r : R), generateEC_tail e drf_phPublicKey drf_phPrivateKey rv acc r ->
     r = (rv, (if rv =? 0 then [] else (if drf_phPublicKey =? 0 then [] else cleanup 18446744073709551515 drf_phPublicKey (generateEC.handleManager_getObject e)) ++ (if drf_phPrivateKey =? 0 then [] else cleanup 18446744073709551514 drf_phPrivateKey (generateEC.handleManager_getObject e))) ++ acc)) /\
  (forall (e : generateED.env) (drf_phPublicKey : N) (drf_phPrivateKey : N) (rv : N) (acc : list (N * N)) (r : R), generateED_tail e drf_phPublicKey drf_phPrivateKey rv acc r ->
     r = (rv, (if rv =? 0 then [] else (if drf_phPublicKey =? 0 then [] else cleanup 18446744073709551515 drf_phPublicKey (generateED.handleManager_getObject e)) ++ (if drf_phPrivateKey =? 0 then [] else cleanup 18446744073709551514 drf_phPrivateKey (generateED.handleManager_getObject e))) ++ acc)) /\
  (forall (e : generateDH.env) (drf_phPublicKey : N) (drf_phPrivateKey : N) (rv : N) (acc : list (N * N)) (r : R), generateDH_tail e drf_phPublicKey drf_phPrivateKey rv acc r ->
     r = (rv, (if rv =? 0 then [] else (if drf_phPublicKey =? 0 then [] else cleanup 18446744073709551515 drf_phPublicKey (generateDH.handleManager_getObject e)) ++ (if drf_phPrivateKey =? 0 then [] else cleanup 18446744073709551514 drf_phPrivateKey (generateDH.handleManager_getObject e))) ++ acc)) /\
  (forall (e : generateDHParameters.env) (drf_phKey : N) (rv : N) (acc : list (N * N)) (r : R), generateDHParameters_tail e drf_phKey rv acc r ->
     r = (rv, (if rv =? 0 then [] else (if drf_phKey =? 0 then [] else cleanup 18446744073709551517 drf_phKey (generateDHParameters.handleManager_getObject e))) ++ acc)) /\
  (forall (e : generateGOST.env) (drf_phPublicKey : N) (drf_phPrivateKey : N) (rv : N) (acc : list (N * N)) (r : R), generateGOST_tail e drf_phPublicKey drf_phPrivateKey rv acc r ->
     r = (rv, (if rv =? 0 then [] else (if drf_phPublicKey =? 0 then [] else cleanup 18446744073709551515 drf_phPublicKey (generateGOST.handleManager_getObject e)) ++ (if drf_phPrivateKey =? 0 then [] else cleanup 18446744073709551514 drf_phPrivateKey (generateGOST.handleManager_getObject e))) ++ acc)) /\
  (forall (e : deriveDH.env) (drf_phKey : N) (rv : N) (acc : list (N * N)) (r : R), deriveDH_tail e drf_phKey rv acc r ->
     r = (rv, (if rv =? 0 then [] else (if drf_phKey =? 0 then [] else cleanup 18446744073709551515 drf_phKey (deriveDH.handleManager_getObject e))) ++ acc)) /\
  (forall (e : deriveECDH.env) (drf_phKey : N) (rv : N) (acc : list (N * N)) (r : R), deriveECDH_tail e drf_phKey rv acc r ->
     r = (rv, (if rv =? 0 then [] else (if drf_phKey =? 0 then [] else cleanup 18446744073709551515 drf_phKey (deriveECDH.handleManager_getObject e))) ++ acc)) /\
  (forall (e : deriveEDDSA.env) (drf_phKey : N) (rv : N) (acc : list (N * N)) (r : R), deriveEDDSA_tail e drf_phKey rv acc r ->
     r = (rv, (if rv =? 0 then [] else (if drf_phKey =? 0 then [] else cleanup 18446744073709551515 drf_phKey (deriveEDDSA.handleManager_getObject e))) ++ acc)) /\
  (forall (e : deriveSymmetric.env) (drf_phKey : N) (rv : N) (acc : list (N * N)) (r : R), deriveSymmetric_tail e drf_phKey rv acc r ->
     r = (rv, (if rv =? 0 then [] else (if drf_phKey =? 0 then [] else cleanup 18446744073709551515 drf_phKey (deriveSymmetric.handleManager_getObject e))) ++ acc)) /\
  (forall (e : C_UnwrapKey.env) (drf_hKey : N) (rv : N) (acc : list (N * N)) (r : R), C_UnwrapKey_tail e drf_hKey rv acc r ->
     r = (rv, (if rv =? 0 then [] else (if drf_hKey =? 0 then [] else cleanup 18446744073709551513 drf_hKey (C_UnwrapKey.handleManager_getObject e))) ++ acc)).
Proof. exact cleanup_tails_partial. Qed.
Print Assumptions C09_cleanup_tails_partial.
