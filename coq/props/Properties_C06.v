(* Properties_C06 — private objects are encrypted at rest (core model: ABytes (Some key) b is the ciphertext of b under
   the master key `key`, ABytes None b is plaintext).
   The full statement "every non-empty byte string of a private object is stored under the master key of ITS OWN token"
   is FALSE of the model and of the library: C06_own_key_refuted (C_SetAttributeValue / C_CopyObject through a session
   of another token re-encrypt under that other token's key; reproduced on the built library, known finding F23).
   Proved: never plaintext and always under the key of some existing token, for every history; under the object's own
   token's key for every history whose set / copy calls stay within one token; the master key of a token never
   changes. *)
From Coq Require Import List NArith Bool.
From SoftHSM Require Import Gen_Const Gen_Pure Defs Core AccessFacts StepFacts Invariants PinFacts HandleFacts TokenFacts EncFacts.
Import ListNotations.
Local Open Scope N_scope.

Theorem C06_private_never_plaintext_partial : forall (ops : list op) (o : obj),
  let s := exec init_state ops in
  stored_obj s o ->
  (o_private o = true -> forall a enc b, In (a, ABytes enc b) o -> b <> [] ->
     exists key j t, enc = Some key /\ alookup j (st_tokens s) = Some t /\ t_key t = key) /\
  (o_private o = false -> forall a enc b, In (a, ABytes enc b) o -> enc = None).
Proof.
  intros ops o s Hst. destruct (inv_enc_live_reachable ops) as [I1 I2]. fold s in I1, I2.
  assert (Hok : exists k, obj_ok (live_key s k) o).
  { destruct Hst as [(k & t & oid & Hl & Hin)|(oid & so & Hin & <-)]; [exists k; eapply I1; eauto|exists (so_tok so); eapply I2; eauto]. }
  destruct Hok as [k Hok]. unfold obj_ok in Hok. split; intros Hp; rewrite Hp in Hok; intros a enc b Hin.
  - intros Hne. destruct (Hok a _ Hin) as [E|(key & E & j & Hj)]; [contradiction|].
    unfold tok_key in Hj. destruct (alookup j (st_tokens s)) as [t|] eqn:Et; [|discriminate Hj].
    cbn in Hj. inversion Hj. exists key, j, t. auto.
  - exact (Hok a _ Hin).
Qed.
Print Assumptions C06_private_never_plaintext_partial.

Theorem C06_own_key_within_one_token : forall ops : list op,
  same_token_trace init_state ops -> inv_enc (exec init_state ops).
Proof. exact inv_enc_same_token_reachable. Qed.
Print Assumptions C06_own_key_within_one_token.

Theorem C06_own_key_refuted : exists ops, ~ inv_enc (exec init_state ops).
Proof. exact inv_enc_refuted. Qed.
Print Assumptions C06_own_key_refuted.

(* PIN changes, re-initialisation and restarts keep the master key: values stay decryptable, the key is never re-issued *)
Theorem C06_master_key_never_changes : forall (ops : list op) (s : state) (k key : N),
  tok_key s k = Some key -> tok_key (exec s ops) k = Some key.
Proof. exact exec_keeps_key. Qed.
Print Assumptions C06_master_key_never_changes.

(* non-vacuity: a reachable history with a private object (encrypted), a public one (clear) and the upgrade copy *)
Theorem C06_example : inv_enc (exec init_state enc_example_ops).
Proof. apply inv_enc_same_token_reachable, same_token_traceb_sound, enc_example. Qed.
Print Assumptions C06_example.

From SoftHSM Require Import Gen_Keys KeyGenSpec KeyGenFacts.

(* the five secret-key generators of SoftHSM.cpp, regenerated whole in trace mode on every run (gen/Gen_Keys.v; the
   proofs are in KeyGenFacts.v): for every environment, the CKA_VALUE they store is what Token::encrypt returned for
   the key bits exactly when the object is private *)
Theorem C06_generated_key_value_encrypted_iff_private :
  (forall (e : generateAES.env) v, In (CKA_VALUE, v) (snd (generateAES.app e)) ->
     v = if generateAES.isPrivate e =? 0 then generateAES.key_getKeyBits e else generateAES.token_encrypt_out_value e (generateAES.key_getKeyBits e)) /\
  (forall (e : generateDES.env) v, In (CKA_VALUE, v) (snd (generateDES.app e)) ->
     v = if generateDES.isPrivate e =? 0 then generateDES.key_getKeyBits e else generateDES.token_encrypt_out_value e (generateDES.key_getKeyBits e)) /\
  (forall (e : generateDES2.env) v, In (CKA_VALUE, v) (snd (generateDES2.app e)) ->
     v = if generateDES2.isPrivate e =? 0 then generateDES2.key_getKeyBits e else generateDES2.token_encrypt_out_value e (generateDES2.key_getKeyBits e)) /\
  (forall (e : generateDES3.env) v, In (CKA_VALUE, v) (snd (generateDES3.app e)) ->
     v = if generateDES3.isPrivate e =? 0 then generateDES3.key_getKeyBits e else generateDES3.token_encrypt_out_value e (generateDES3.key_getKeyBits e)) /\
  (forall (e : generateGeneric.env) v, In (CKA_VALUE, v) (snd (generateGeneric.app e)) ->
     v = if generateGeneric.isPrivate e =? 0 then generateGeneric.symKey_getKeyBits e else generateGeneric.token_encrypt_out_value e (generateGeneric.symKey_getKeyBits e)).
Proof. exact generated_value_encrypted_iff_private. Qed.
Print Assumptions C06_generated_key_value_encrypted_iff_private.

(* C_UnwrapKey regenerated whole (gen/Gen_Keys.v): the secret value it stores for a private object is an output of
   Token::encrypt (first clause); the other clauses are the history attributes of the new key (C08, C13) *)
Theorem C06_unwrapped_key_value_encrypted_when_private : forall (e : C_UnwrapKey.env),
  (forall v, In (CKA_VALUE, v) (snd (C_UnwrapKey.app e)) -> C_UnwrapKey.extractObjectInformation_gives_isPrivate e <> 0 -> exists x, v = C_UnwrapKey.token_encrypt_out_value e x) /\
  (forall v, In (CKA_LOCAL, v) (snd (C_UnwrapKey.app e)) -> v = 0) /\
  (forall v, In (CKA_ALWAYS_SENSITIVE, v) (snd (C_UnwrapKey.app e)) -> v = 0) /\
  (forall v, In (CKA_NEVER_EXTRACTABLE, v) (snd (C_UnwrapKey.app e)) -> v = 0) /\
  (fst (C_UnwrapKey.app e) = 0 -> (C_UnwrapKey.extractObjectInformation_gives_objClass e = CKO_SECRET_KEY -> exists v, In (CKA_VALUE, v) (snd (C_UnwrapKey.app e))) /\
     (exists v, In (CKA_LOCAL, v) (snd (C_UnwrapKey.app e))) /\ (exists v, In (CKA_ALWAYS_SENSITIVE, v) (snd (C_UnwrapKey.app e))) /\
     (exists v, In (CKA_NEVER_EXTRACTABLE, v) (snd (C_UnwrapKey.app e)))).
Proof. exact unwrapped_key_attributes. Qed.
Print Assumptions C06_unwrapped_key_value_encrypted_when_private.
