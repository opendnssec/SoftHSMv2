(* Properties_C16 — what a crash in the middle of a file rewrite leaves behind, read back with the codec model.
   The full statement ("old or new state, never a half-written object returned as valid") is FALSE of the object
   store's rewrite-in-place protocol: C16_atomicity_refuted gives the witness, C16_crash_state_cases_partial is the proved
   part (the complete classification of crash states), C16_crash_never_invents the guarantee that remains. *)
From Coq Require Import List NArith Bool.
From SoftHSM Require Import Defs Codec CodecFacts CrashFacts.
Import ListNotations.
Local Open Scope N_scope.

Theorem C16_crash_state_cases_partial : forall gen o old s,
  gen < 2 ^ 64 -> wf_obj o = true -> on_disk old (encode_obj gen o) s ->
  s = old \/ s = encode_obj gen o \/ (length s < 8)%nat \/ decode_obj s = None \/
  exists k, (k < length o)%nat /\ decode_obj s = Some (gen, firstn k o).
Proof. exact crash_state_cases. Qed.
Print Assumptions C16_crash_state_cases_partial.

Theorem C16_atomicity_refuted :
  exists gen o old s, gen < 2 ^ 64 /\ wf_obj o = true /\ on_disk old (encode_obj gen o) s /\
    decode_obj s <> decode_obj old /\ decode_obj s <> decode_obj (encode_obj gen o).
Proof. exact crash_atomicity_refuted. Qed.
Print Assumptions C16_atomicity_refuted.

Theorem C16_partial_object_accepted_refuted :
  exists n, decode_obj (firstn n (encode_obj 7 example_obj)) = Some (7, firstn 1 example_obj).
Proof. exact partial_object_accepted_example. Qed.
Print Assumptions C16_partial_object_accepted_refuted.

Theorem C16_crash_never_invents : forall gen o old s g' o',
  gen < 2 ^ 64 -> wf_obj o = true -> on_disk old (encode_obj gen o) s -> s <> old ->
  decode_obj s = Some (g', o') -> g' = gen /\ exists k, o' = firstn k o.
Proof. exact crash_never_invents. Qed.
Print Assumptions C16_crash_never_invents.

(* a cut inside an attribute (at least 8 bytes into it) is always rejected; one up to 7 bytes past a boundary is
   accepted (CodecFacts.decode_prefix_attr, the last case of C16_crash_state_cases_partial) *)
Theorem C16_cut_inside_attribute_rejected : forall gen o k p n, gen < 2 ^ 64 -> wf_obj o = true ->
  nth_error o k = Some p -> (8 <= n < length (enc_attr p))%nat ->
  decode_obj (firstn (length (encode_obj gen (firstn k o)) + n) (encode_obj gen o)) = None.
Proof. exact decode_prefix_reject. Qed.
Print Assumptions C16_cut_inside_attribute_rejected.
