(* Properties_C01 — private objects are unreachable unless the normal user is logged in; token objects
   need read-write sessions. *)
From Coq Require Import List NArith Bool.
From SoftHSM Require Import Gen_Entry EntryFacts Gen_Const Gen_Pure Defs Core AccessFacts StepFacts Invariants PrivacyFacts FindFacts EntryModel Gen_Ops ExtractFacts CopyFacts Wp.
Import ListNotations.
Local Open Scope N_scope.

(* the regenerated access matrix (access.cpp): a private object is readable / writable only in the two
   USER states, whatever number the state argument is; a token object is writable only in R/W states *)
Theorem C01_matrix_read : forall (st : N) (tok : bool), have_read st tok true = CKR_OK -> is_user_state st = true.
Proof. exact haveRead_private_needs_user. Qed.
Print Assumptions C01_matrix_read.
Theorem C01_matrix_write : forall (st : N) (tok : bool), have_write st tok true = CKR_OK -> is_user_state st = true.
Proof. exact haveWrite_private_needs_user. Qed.
Print Assumptions C01_matrix_write.
Theorem C01_matrix_token_rw : forall (st : N) (priv : bool), have_write st true priv = CKR_OK -> is_rw_state st = true.
Proof. exact haveWrite_token_needs_rw. Qed.
Print Assumptions C01_matrix_token_rw.
(* the regenerated Session::getState reports a USER state only when the normal user is logged in *)
Theorem C01_user_state_iff : forall (s : state) (x : session),
  is_user_state (sess_state s x) = true <-> tok_login s (s_tok x) = LUser.
Proof. exact sess_state_user. Qed.
Print Assumptions C01_user_state_iff.

(* in EVERY state: get/set/copy/destroy/use-as-key of a private object through a session whose token has
   no normal user logged in fails, changes nothing and writes no attribute byte *)
Theorem C01_private_object_unreachable : forall (s : state) (o : op) (h oh : N) (x : session) e loc ob,
  st_init s = true -> get_session s h = Some x -> get_object s oh = Some (e, loc, ob) ->
  o_private ob = true -> not_user s x ->
  match o with
  | OGetAttr h' oh' q => h' = h -> oh' = oh -> exists l, step s o = (s, RAttrs CKR_GENERAL_ERROR l) /\ no_data l
  | OSetAttr h' oh' _ | OCopy h' oh' _ | ODestroy h' oh' => h' = h -> oh' = oh -> exists rv, step s o = (s, RRv rv) /\ rv <> CKR_OK
  | OUseInit _ h' oh' => h' = h -> oh' = oh -> exists rv, step s o = (s, RRv rv) /\ rv <> CKR_OK
  | _ => True
  end.
Proof.
  intros s o h oh x e loc ob Hi Hs Ho Hp Hn.
  (* the matrix refuses both reading and writing the object (Hr, Hw), so each call answers its refusal *)
  assert (Hr := not_user_read s x (o_token ob) Hn). assert (Hw := not_user_write s x (o_token ob) Hn). rewrite <- Hp in Hr, Hw.
  destruct (access_refused s h oh x e loc ob Hi Hs Ho) as [R W].
  destruct (R Hr) as (Rcopy & Rgetattr & Ruse). destruct (W Hw) as (Wsetattr & Wdestroy).
  destruct o; try exact I; intros -> ->; eexists.
  - (* C_CopyObject *) split; [apply Rcopy|exact Hr].
  - (* C_DestroyObject *) split; [apply Wdestroy|exact Hw].
  - (* C_GetAttributeValue: every entry of the answer is empty *)
    split; [apply Rgetattr|]. intros en Hin. apply in_map_iff in Hin. destruct Hin as [p [<- _]]. cbn. auto.
  - (* C_SetAttributeValue *) split; [apply Wsetattr|exact Hw].
  - (* the keyed operations' Init: an active operation is reported first *)
    split; [apply Ruse|]. destruct (s_op x =? SESSION_OP_NONE); [exact Hr|discriminate].
Qed.
Print Assumptions C01_private_object_unreachable.

(* searching there never captures a private object *)
Theorem C01_find_hides_private : forall (s : state) (h : N) (x : session) (tm : template) (prio : list bytes),
  st_init s = true -> get_session s h = Some x -> not_user s x ->
  snd (step s (OFindInit h tm prio)) = RRv CKR_OK ->
  exists x', alookup h (st_sessions (fst (step s (OFindInit h tm prio)))) = Some x' /\
    forall oh, In oh (s_find x') ->
      exists c, In c (candidates s (s_tok x)) /\ o_private (snd c) = false /\
                find_obj_handle (fst (step s (OFindInit h tm prio))) (fst (fst c)) = Some oh.
Proof.
  intros s h x tm prio Hi Hs Hn Hok.
  destruct (findinit_sound_complete s h x tm prio Hi Hs Hok) as [x' [H1 [_ [_ H4]]]].
  exists x'. split; [exact H1|]. intros oh Hin. apply H4 in Hin. destruct Hin as [c [Hc1 [Hc2 Hc3]]].
  exists c. split; [exact Hc1|]. split; [|exact Hc3].
  apply (proj2 (public_session_iff s x)) in Hn. rewrite Hn in Hc2. eapply public_session_hides_private. exact Hc2.
Qed.
Print Assumptions C01_find_hides_private.

(* private objects cannot be created or produced by copying there *)
Theorem C01_private_create_refused : forall (s : state) (h : N) (x : session) (tm : template),
  st_init s = true -> get_session s h = Some x -> not_user s x -> tmpl_bool CKA_PRIVATE tm 1 <> 0 ->
  fst (step s (OCreate h tm)) = s /\ (forall hh, snd (step s (OCreate h tm)) <> RHandle hh).
Proof.
  intros s h x tm Hi Hs Hn Hp. apply (create_refused s h x tm Hi Hs). apply N.eqb_neq in Hp. rewrite Hp. apply not_user_write, Hn.
Qed.
Print Assumptions C01_private_create_refused.
Theorem C01_private_copy_refused : forall (s : state) (h oh : N) (x : session) (tm : template),
  st_init s = true -> get_session s h = Some x -> not_user s x ->
  fst (step s (OCopy h oh tm)) = s \/
  (exists e loc ob, get_object s oh = Some (e, loc, ob) /\ o_private ob = false /\ tmpl_bool CKA_PRIVATE tm 0 = 0).
Proof.
  intros s h oh x tm Hi Hs Hn. unfold step. rewrite Hi, Hs. cbn [negb].
  (* refusals that leave the state alone: no such object, source not readable, not copyable, template or class outside
     the modelled fragment *)
  destruct (get_object s oh) as [[[e loc] ob]|] eqn:Ho; [|left; reflexivity].
  destruct (negb (have_read (sess_state s x) (o_token ob) (o_private ob) =? CKR_OK)); [left; reflexivity|].
  destruct (negb (obj_bool ob CKA_COPYABLE true)); [left; reflexivity|].
  destruct (negb (tmpl_wellformed tm) || negb (obj_ulong ob CKA_CLASS CKO_VENDOR_DEFINED =? CKO_DATA)); [left; reflexivity|].
  cbv zeta. destruct (negb (tmpl_bool CKA_PRIVATE tm (b2n (o_private ob)) =? 0)) eqn:Ep.
  - (* the copy is to be private: the write check asks for the user *)
    rewrite andb_false_r. match goal with |- context [negb (?w =? CKR_OK)] => destruct (N.eqb_spec w CKR_OK) as [E|_] end; [|left; reflexivity].
    destruct (not_user_write _ _ _ Hn E).
  - (* privacy cannot be taken off *)
    destruct (o_private ob) eqn:Hp; [left; reflexivity|]. right. exists e, loc, ob. apply negb_false_iff, N.eqb_eq in Ep. auto.
Qed.
Print Assumptions C01_private_copy_refused.

(* token objects: create / change / destroy only through read-write sessions *)
Theorem C01_token_object_needs_rw : forall (s : state) (o : op) (h oh : N) (x : session) e loc ob,
  st_init s = true -> get_session s h = Some x -> get_object s oh = Some (e, loc, ob) ->
  o_token ob = true -> ro_session s x ->
  match o with
  | OSetAttr h' oh' _ | ODestroy h' oh' => h' = h -> oh' = oh -> exists rv, step s o = (s, RRv rv) /\ rv <> CKR_OK
  | _ => True
  end.
Proof.
  intros s o h oh x e loc ob Hi Hs Ho Ht Hr.
  (* the matrix refuses writing a token object from an R/O session that is not the SO's (Hw) *)
  assert (Hw := ro_session_write s x (o_private ob) Hr). rewrite <- Ht in Hw.
  destruct (proj2 (access_refused s h oh x e loc ob Hi Hs Ho) Hw) as (Wsetattr & Wdestroy).
  destruct o; try exact I; intros -> ->; eexists.
  - (* C_DestroyObject *) split; [apply Wdestroy|exact Hw].
  - (* C_SetAttributeValue *) split; [apply Wsetattr|exact Hw].
Qed.
Print Assumptions C01_token_object_needs_rw.
Theorem C01_token_create_needs_rw : forall (s : state) (h : N) (x : session) (tm : template),
  st_init s = true -> get_session s h = Some x -> ro_session s x -> tmpl_bool CKA_TOKEN tm 0 <> 0 ->
  fst (step s (OCreate h tm)) = s /\ (forall hh, snd (step s (OCreate h tm)) <> RHandle hh).
Proof.
  intros s h x tm Hi Hs Hr Hp. apply (create_refused s h x tm Hi Hs). apply N.eqb_neq in Hp. rewrite Hp. apply ro_session_write, Hr.
Qed.
Print Assumptions C01_token_create_needs_rw.

(* The object-creating entry points (regenerated from SoftHSM.cpp): the object is built only after haveWrite has
   accepted the token / private flags extracted from ITS OWN template; with the access matrix (C01_matrix lemmas) a
   private object therefore needs the normal user logged in, whatever path creates it.  `X.app e = SENTINEL` says that
   the walk along the code got past the translated fragment (EntryFacts.v); the tactics are those of Wp.v. *)
Theorem C01_CreateObject_write_check : forall (e : CreateObject.env),
  bounded (CreateObject.haveWrite e) -> CreateObject.hv1_rv e < SENTINEL -> CreateObject.zz_rest e = SENTINEL ->
  CreateObject.app e = SENTINEL ->
  CreateObject.handleManager_getSession e (CreateObject.hSession e) <> 0 /\
  CreateObject.haveWrite e (CreateObject.session_getState e) (CreateObject.hv1_isOnToken e) (CreateObject.hv1_isPrivate e) = CKR_OK.
Proof.
  intros e.
  unfold bounded. intros Hw Hrv Hz. wp_reach. cbv beta delta [CreateObject.app gen_SoftHSM__CreateObject].
  repeat wp_step; try exit; reached; guards.
Qed.
Print Assumptions C01_CreateObject_write_check.

Theorem C01_DeriveKey_write_check : forall (e : C_DeriveKey.env),
  bounded (C_DeriveKey.haveRead e) -> bounded (C_DeriveKey.haveWrite e) -> C_DeriveKey.hv1_rv e < SENTINEL ->
  (forall a b c d f g h i j, C_DeriveKey.deriveDH e a b c d f g h i j = SENTINEL) ->
  (forall a b c d f g h i j, C_DeriveKey.deriveECDH e a b c d f g h i j = SENTINEL) ->
  (forall a b c d f g h i j, C_DeriveKey.deriveEDDSA e a b c d f g h i j = SENTINEL) ->
  (forall a b c d f g h i j, C_DeriveKey.deriveSymmetric e a b c d f g h i j = SENTINEL) ->
  C_DeriveKey.app e = SENTINEL ->
  let kgb := C_DeriveKey.key_getBooleanValue e in let sst := C_DeriveKey.session_getState e in
  kgb CKA_DERIVE false = true /\
  C_DeriveKey.isMechanismPermitted e (C_DeriveKey.handleManager_getObject e (C_DeriveKey.hBaseKey e)) (C_DeriveKey.pMechanism e) = true /\
  C_DeriveKey.haveRead e sst (if kgb CKA_TOKEN false then 1 else 0) (if kgb CKA_PRIVATE true then 1 else 0) = CKR_OK /\
  C_DeriveKey.haveWrite e sst (C_DeriveKey.hv1_isOnToken e) (C_DeriveKey.hv1_isPrivate e) = CKR_OK.
Proof. exact DeriveKey_guards. Qed.
Print Assumptions C01_DeriveKey_write_check.

Theorem C01_GenerateKey_write_check : forall (e : C_GenerateKey.env),
  bounded (C_GenerateKey.haveWrite e) ->
  (forall a b c d f g, C_GenerateKey.generateAES e a b c d f g = SENTINEL) -> (forall a b c d f g, C_GenerateKey.generateDES e a b c d f g = SENTINEL) ->
  (forall a b c d f g, C_GenerateKey.generateDES2 e a b c d f g = SENTINEL) -> (forall a b c d f g, C_GenerateKey.generateDES3 e a b c d f g = SENTINEL) ->
  (forall a b c d f g, C_GenerateKey.generateDHParameters e a b c d f g = SENTINEL) -> (forall a b c d f g, C_GenerateKey.generateDSAParameters e a b c d f g = SENTINEL) ->
  (forall a b c d f g, C_GenerateKey.generateGeneric e a b c d f g = SENTINEL) ->
  C_GenerateKey.app e = SENTINEL ->
  C_GenerateKey.find e (C_GenerateKey.supportedMechanisms_begin e) (C_GenerateKey.supportedMechanisms_end e) (C_GenerateKey.pMechanism_mechanism e) <> C_GenerateKey.supportedMechanisms_end e /\
  C_GenerateKey.handleManager_getSession e (C_GenerateKey.hSession e) <> 0 /\
  C_GenerateKey.haveWrite e (C_GenerateKey.session_getState e) (C_GenerateKey.hv1_isOnToken e) (C_GenerateKey.hv1_isPrivate e) = CKR_OK.
Proof. exact GenerateKey_guards. Qed.
Print Assumptions C01_GenerateKey_write_check.

Theorem C01_GenerateKeyPair_write_check : forall (e : C_GenerateKeyPair.env),
  (forall a b c, C_GenerateKeyPair.haveWrite e a b c < SENTINEL) ->
  (forall a b c d f g h i j k l, C_GenerateKeyPair.generateDH e a b c d f g h i j k l = SENTINEL) ->
  (forall a b c d f g h i j k l, C_GenerateKeyPair.generateDSA e a b c d f g h i j k l = SENTINEL) ->
  (forall a b c d f g h i j k l, C_GenerateKeyPair.generateEC e a b c d f g h i j k l = SENTINEL) ->
  (forall a b c d f g h i j k l, C_GenerateKeyPair.generateED e a b c d f g h i j k l = SENTINEL) ->
  (forall a b c d f g h i j k l, C_GenerateKeyPair.generateGOST e a b c d f g h i j k l = SENTINEL) ->
  (forall a b c d f g h i j k l, C_GenerateKeyPair.generateRSA e a b c d f g h i j k l = SENTINEL) ->
  C_GenerateKeyPair.app e = SENTINEL ->
  C_GenerateKeyPair.find e (C_GenerateKeyPair.supportedMechanisms_begin e) (C_GenerateKeyPair.supportedMechanisms_end e) (C_GenerateKeyPair.pMechanism_mechanism e)
    <> C_GenerateKeyPair.supportedMechanisms_end e /\
  (* one write check for both halves: on the token if either is, private if either is *)
  C_GenerateKeyPair.haveWrite e (C_GenerateKeyPair.session_getState e)
    (negb (C_GenerateKeyPair.hv1_ispublicKeyToken e =? 0) || negb (C_GenerateKeyPair.hv2_isprivateKeyToken e =? 0))
    (negb (C_GenerateKeyPair.hv1_ispublicKeyPrivate e =? 0) || negb (C_GenerateKeyPair.hv2_isprivateKeyPrivate e =? 0)) = CKR_OK.
Proof. exact GenerateKeyPair_guards. Qed.
Print Assumptions C01_GenerateKeyPair_write_check.

Theorem C01_UnwrapKey_write_check : forall (e : C_UnwrapKey.env),
  bounded (C_UnwrapKey.haveRead e) -> bounded (C_UnwrapKey.haveWrite e) -> bounded1 (C_UnwrapKey.MechParamCheckRSAPKCSOAEP e) ->
  C_UnwrapKey.hv1_rv e < SENTINEL -> C_UnwrapKey.zz_rest e = SENTINEL ->
  C_UnwrapKey.app e = SENTINEL ->
  let ugb := C_UnwrapKey.unwrapKey_getBooleanValue e in let ugu := C_UnwrapKey.unwrapKey_getUnsignedLongValue e in
  let mech := C_UnwrapKey.pMechanism_mechanism e in let sst := C_UnwrapKey.session_getState e in
  ugb CKA_UNWRAP false = true /\
  C_UnwrapKey.isMechanismPermitted e (C_UnwrapKey.handleManager_getObject e (C_UnwrapKey.hUnwrappingKey e)) (C_UnwrapKey.pMechanism e) = true /\
  C_UnwrapKey.haveRead e sst (if ugb CKA_TOKEN false then 1 else 0) (if ugb CKA_PRIVATE true then 1 else 0) = CKR_OK /\
  (* the object to be created: the write check is applied to the token / private flags extracted from the template *)
  C_UnwrapKey.haveWrite e sst (C_UnwrapKey.hv1_isOnToken e) (C_UnwrapKey.hv1_isPrivate e) = CKR_OK /\
  ((mech = CKM_AES_KEY_WRAP \/ mech = CKM_AES_KEY_WRAP_PAD) -> ugu CKA_CLASS CKO_VENDOR_DEFINED = CKO_SECRET_KEY /\ ugu CKA_KEY_TYPE CKK_VENDOR_DEFINED = CKK_AES) /\
  ((mech = CKM_RSA_PKCS \/ mech = CKM_RSA_PKCS_OAEP) -> ugu CKA_CLASS CKO_VENDOR_DEFINED = CKO_PRIVATE_KEY /\ ugu CKA_KEY_TYPE CKK_VENDOR_DEFINED = CKK_RSA).
Proof. exact UnwrapKey_guards. Qed.
Print Assumptions C01_UnwrapKey_write_check.


(* The model's decisions are the code's (EntryModel.v): the regenerated C_GetAttributeValue / C_SetAttributeValue /
   C_DestroyObject / C_FindObjectsInit (gen/Gen_Entry.v), applied to the abstraction of the model state, refuse exactly
   when the model's have_read / have_write / CKA_MODIFIABLE tests do, and the search loop is handed the model's `public`
   flag.  `rest` stands for what the function does behind the regenerated prefix. *)
Theorem C01_getattr_code_guard : forall (s : state) (h oh : N) (x : session) (rest ptr cnt : N),
  ptr <> 0 ->
  C_GetAttributeValue.app (getattr_env s h oh x rest ptr cnt)
  = match get_object s oh with
    | None => CKR_OBJECT_HANDLE_INVALID
    | Some (_, _, ob) => if negb (have_read (sess_state s x) (o_token ob) (o_private ob) =? CKR_OK) then CKR_GENERAL_ERROR else rest
    end.
Proof. exact getattr_code_guard. Qed.
Print Assumptions C01_getattr_code_guard.

Theorem C01_setattr_code_guard : forall (s : state) (h oh : N) (x : session) (rest ptr cnt : N),
  ptr <> 0 ->
  C_SetAttributeValue.app (setattr_env s h oh x rest ptr cnt)
  = match get_object s oh with
    | None => CKR_OBJECT_HANDLE_INVALID
    | Some (_, _, ob) =>
        let rv := have_write (sess_state s x) (o_token ob) (o_private ob) in
        if negb (rv =? CKR_OK) then rv else if negb (obj_bool ob CKA_MODIFIABLE true) then CKR_ACTION_PROHIBITED else rest
    end.
Proof. exact setattr_code_guard. Qed.
Print Assumptions C01_setattr_code_guard.

Theorem C01_destroy_model_is_code : forall (s : state) (h oh : N) (x : session),
  st_init s = true -> get_session s h = Some x ->
  rv_of (snd (step s (ODestroy h oh))) = Some (C_DestroyObject.app (destroy_env s h oh x)).
Proof. exact destroy_model_is_code. Qed.
Print Assumptions C01_destroy_model_is_code.

Theorem C01_findinit_code_passes_model_public : forall (s : state) (h : N) (x : session) (rest : bool -> N) (ptr cnt : N),
  (ptr <> 0 \/ cnt = 0) ->
  C_FindObjectsInit.app (findinit_env s h x rest ptr cnt)
  = if negb (s_op x =? SESSION_OP_NONE) then CKR_OPERATION_ACTIVE else rest (model_public (sess_state s x)).
Proof. exact findinit_code_passes_model_public. Qed.
Print Assumptions C01_findinit_code_passes_model_public.

Theorem C01_findinit_model_uses_public : forall (s : state) (h : N) (x : session) (tm : template) (prio : list bytes),
  st_init s = true -> get_session s h = Some x -> (s_op x =? SESSION_OP_NONE) = true ->
  forallb (fun e => match te_val e with Some b => blen b =? te_len e | None => te_len e =? 0 end) tm = true ->
  step s (OFindInit h tm prio)
  = match find_loop (tctx_of s (s_tok x)) (model_public (sess_state s x)) (s_tok x) h tm (order_cands prio (candidates s (s_tok x))) s [] with
    | None => (s, RUnmodelled)
    | Some (s1, hs) => (upd_session s1 h (fun x => set_s_op x SESSION_OP_FIND hs), RRv CKR_OK)
    end.
Proof. exact findinit_model_uses_public. Qed.
Print Assumptions C01_findinit_model_uses_public.

(* ... and where the model refuses, it answers what the regenerated code answers *)
Theorem C01_getattr_model_refusal_is_code : forall (s : state) (h oh : N) (x : session) (q : list (N * option N)) (rest : N),
  st_init s = true -> get_session s h = Some x ->
  (match get_object s oh with None => True
   | Some (_, _, ob) => negb (have_read (sess_state s x) (o_token ob) (o_private ob) =? CKR_OK) = true end) ->
  rv_of (snd (step s (OGetAttr h oh q))) = Some (C_GetAttributeValue.app (getattr_env s h oh x rest 1 (N.of_nat (length q)))).
Proof.
  intros s h oh x q rest Hi Hs Hg. rewrite getattr_code_guard by discriminate. unfold step. rewrite Hi, Hs.
  destruct (get_object s oh) as [[[e loc] ob]|]; [cbv zeta; rewrite Hg|]; reflexivity.
Qed.
Print Assumptions C01_getattr_model_refusal_is_code.

Theorem C01_setattr_model_refusal_is_code : forall (s : state) (h oh : N) (x : session) (tm : template) (rest : N),
  st_init s = true -> get_session s h = Some x ->
  (match get_object s oh with None => True
   | Some (_, _, ob) => negb (have_write (sess_state s x) (o_token ob) (o_private ob) =? CKR_OK) = true
                        \/ obj_bool ob CKA_MODIFIABLE true = false end) ->
  rv_of (snd (step s (OSetAttr h oh tm))) = Some (C_SetAttributeValue.app (setattr_env s h oh x rest 1 (N.of_nat (length tm)))).
Proof. exact setattr_model_refusal_is_code. Qed.
Print Assumptions C01_setattr_model_refusal_is_code.


(* extractObjectInformation, regenerated whole: which privacy the access check of CreateObject, C_UnwrapKey,
   C_DeriveKey, C_GenerateKey(Pair) is made with.  It is the template's (or the caller's default, true) - EXCEPT that
   without a CKA_PRIVATE in the template, and unless the caller said `implicit`, it is lowered to false for certificates
   and public keys, and for nothing else. *)
Theorem C01_extract_private : forall (e : extractObjectInformation.env) (v : N),
  fst (extractObjectInformation.app e) = CKR_OK ->
  In (OUT_PRIVATE, v) (snd (extractObjectInformation.app e)) ->
  let cls := extractObjectInformation.hv1_objClass e in
  v = if negb (extractObjectInformation.bImplicit e) && ((cls =? CKO_CERTIFICATE) || (cls =? CKO_PUBLIC_KEY)) && negb (extractObjectInformation.hv1_bHasPrivate e)
      then 0 else extractObjectInformation.hv1_isPrivate e.
Proof.
  intros e v.
  destruct (extract_app e) as (rv & p & -> & H). intros Hrv Hin. rewrite (proj2 (outs_in _ _ _ _ Hin) eq_refl). apply H, Hrv.
Qed.
Print Assumptions C01_extract_private.

(* the storage flag is never touched after the scan *)
Theorem C01_extract_token : forall (e : extractObjectInformation.env) (v : N),
  In (OUT_TOKEN, v) (snd (extractObjectInformation.app e)) -> v = extractObjectInformation.hv1_isOnToken e.
Proof. intros e v. destruct (extract_app e) as (rv & p & -> & _). intros Hin. apply (outs_in _ _ _ _ Hin), eq_refl. Qed.
Print Assumptions C01_extract_token.

(* a template without CKA_CLASS is refused unless the caller said `implicit` (C_GenerateKey and C_GenerateKeyPair do,
   and C_DeriveKey for the CKM_CONCATENATE_* mechanisms) *)
Theorem C01_extract_needs_class : forall (e : extractObjectInformation.env),
  fst (extractObjectInformation.app e) = CKR_OK -> extractObjectInformation.bImplicit e = false ->
  extractObjectInformation.hv1_bHasClass e = true.
Proof. intros e. destruct (extract_app e) as (rv & p & -> & H). intros Hrv. apply H, Hrv. Qed.
Print Assumptions C01_extract_needs_class.

(* C_CopyObject, regenerated whole: the access decisions, and everything done to the copy uses the copy's flags *)

Theorem C01_copy_access : forall (e : C_CopyObject.env),
  fst (C_CopyObject.app e) = CKR_OK ->
  let ogb := C_CopyObject.object_getBooleanValue e in
  C_CopyObject.haveRead e (C_CopyObject.session_getState e) (ogb CKA_TOKEN false) (ogb CKA_PRIVATE true) = CKR_OK /\
  C_CopyObject.haveWrite e (C_CopyObject.session_getState e) (C_CopyObject.hv1_isOnToken e) (C_CopyObject.hv1_isPrivate e) = CKR_OK /\
  ogb CKA_COPYABLE true <> 0 /\
  (ogb CKA_PRIVATE true <> 0 -> C_CopyObject.hv1_isPrivate e <> 0).
Proof. exact copy_access. Qed.
Print Assumptions C01_copy_access.

Theorem C01_copy_uses_the_copys_privacy : forall (e : C_CopyObject.env),
  let pv := copy_private e in
  C_CopyObject.app e =
  C_CopyObject.app
    (C_CopyObject.set_newp11object_saveTemplate (fun tok _ t n op => C_CopyObject.newp11object_saveTemplate e tok pv t n op)
    (C_CopyObject.set_sessionObjectStore_createObject (fun sl h _ => C_CopyObject.sessionObjectStore_createObject e sl h pv)
    (C_CopyObject.set_handleManager_addTokenObject (fun sl _ o => C_CopyObject.handleManager_addTokenObject e sl pv o)
    (C_CopyObject.set_handleManager_addSessionObject (fun sl h _ o => C_CopyObject.handleManager_addSessionObject e sl h pv o) e)))).
Proof. exact copy_uses_the_copys_privacy. Qed.
Print Assumptions C01_copy_uses_the_copys_privacy.

Theorem C01_copy_uses_the_copys_storage : forall (e : C_CopyObject.env),
  C_CopyObject.app e =
  if copy_on_token e
  then C_CopyObject.app (C_CopyObject.set_sessionObjectStore_createObject (fun _ _ _ => 0) (C_CopyObject.set_handleManager_addSessionObject (fun _ _ _ _ => 0) e))
  else C_CopyObject.app (C_CopyObject.set_token_createObject 0 (C_CopyObject.set_handleManager_addTokenObject (fun _ _ _ => 0) e)).
Proof. exact copy_uses_the_copys_storage. Qed.
Print Assumptions C01_copy_uses_the_copys_storage.
