(* Properties_C04 — only the current PIN authenticates; PIN changes are exact and lossless.
   PINs are the ghost byte strings of the symbolic model (DESIGN.md §3). *)
From Coq Require Import List NArith Bool Lia.
From SoftHSM Require Import Gen_Entry EntryModel Gen_Const Gen_Pure Defs Core AccessFacts StepFacts Invariants SessionSpec PinFacts AssocFacts.
Import ListNotations.
Local Open Scope N_scope.

(* a PIN is accepted iff it is byte-for-byte the stored one (and not empty): no prefix, extension,
   neighbour or other user's PIN *)
Theorem C04_pin_ok_iff : forall stored given : bytes, pin_ok stored given = true <-> given = stored /\ given <> [].
Proof.
  intros stored given.
  unfold pin_ok. rewrite andb_true_iff, negb_true_iff, bytes_eqb_eq. split.
  - intros [H1 ->]. split; [reflexivity|]. intro E. subst. discriminate.
  - intros [-> H]. split; [|reflexivity]. destruct stored; [congruence|]. unfold blen. cbn [length].
    apply N.eqb_neq. lia.
Qed.
Print Assumptions C04_pin_ok_iff.

Theorem C04_login_iff_current_pin : forall (s : state) (h ut : N) (p : bytes) (x : session) (t : token),
  st_init s = true -> get_session s h = Some x -> alookup (s_tok x) (st_tokens s) = Some t ->
  (snd (step s (OLogin h ut (Some p))) = RRv CKR_OK <->
   (ut = CKU_SO /\ has_ro_session s (s_tok x) = false /\ t_login t = LNone /\ pin_ok (t_sopin t) p = true) \/
   (ut = CKU_USER /\ t_login t = LNone /\ exists up, t_userpin t = Some up /\ pin_ok up p = true)).
Proof. exact login_ok_iff. Qed.
Print Assumptions C04_login_iff_current_pin.

Theorem C04_initpin_spec : forall (s : state) (h : N) (x : session) (p : bytes) (t : token),
  st_init s = true -> get_session s h = Some x -> alookup (s_tok x) (st_tokens s) = Some t ->
  (snd (step s (OInitPin h (Some p))) = RRv CKR_OK <-> (tok_login s (s_tok x) = LSO /\ pin_len_ok (blen p) = true)) /\
  (snd (step s (OInitPin h (Some p))) = RRv CKR_OK ->
   forall k, tok_pins (fst (step s (OInitPin h (Some p)))) k =
             if s_tok x =? k then Some (t_sopin t, Some p, t_key t) else tok_pins s k) /\
  (forall k, tok_objs (fst (step s (OInitPin h (Some p)))) k = tok_objs s k) /\
  (forall k, tok_login (fst (step s (OInitPin h (Some p)))) k = tok_login s k).
Proof. exact initpin_spec. Qed.
Print Assumptions C04_initpin_spec.

(* C_SetPIN: R/W session, correct old PIN, new PIN inside the range; the user's PIN from public / user
   sessions, the SO's from an SO session; exactly that PIN changes *)
Theorem C04_setpin_ok_iff : forall (s : state) (h : N) (x : session) (po pn : bytes) (t : token),
  st_init s = true -> get_session s h = Some x -> alookup (s_tok x) (st_tokens s) = Some t ->
  (snd (step s (OSetPin h (Some po) (Some pn))) = RRv CKR_OK <->
     pin_len_ok (blen pn) = true /\
     ((tok_login s (s_tok x) = LSO /\ pin_ok (t_sopin t) po = true) \/
      (tok_login s (s_tok x) <> LSO /\ s_rw x = true /\ exists up, t_userpin t = Some up /\ pin_ok up po = true))).
Proof.
  intros s h x po pn t Hi Hs Ht. destruct (pin_len_ok (blen pn)) eqn:El.
  2: { (* a new PIN outside the range is refused before anything else *)
       unfold step. rewrite Hi, Hs, El. cbn. split; [discriminate|]. intros [H _]. discriminate. }
  destruct (setpin_answers s h x t po pn Hi Hs Ht El)
    as [Hso Hp | Hso Hp | up Hn Hrw Hup Hp | up Hn Hrw Hup Hp | Hn Hrw Hup | Hn Hrw]; cbn [snd].
  - (* SO logged in, old SO PIN right: accepted, first clause *)
    split; [intros _; auto|reflexivity].
  - (* SO logged in, old SO PIN wrong: refused; the second clause asks for another login state *)
    split; [discriminate|]. intros [_ [[_ H]|[H _]]]; congruence.
  - (* not the SO, R/W session, old user PIN right: accepted, second clause *)
    split; [intros _|reflexivity]. split; [reflexivity|right]. eauto 6.
  - (* ... old user PIN wrong: refused; the stored user PIN is the one the clause speaks of *)
    split; [discriminate|]. intros [_ [[H _]|(_ & _ & up' & H1 & H2)]]; congruence.
  - (* ... no user PIN set: refused *)
    split; [discriminate|]. intros [_ [[H _]|(_ & _ & up' & H1 & _)]]; congruence.
  - (* not the SO, R/O session: refused *)
    split; [discriminate|]. intros [_ [[H _]|(_ & H & _)]]; congruence.
Qed.
Print Assumptions C04_setpin_ok_iff.

(* exactly the addressed PIN changes; the other PIN, the master key, every object and the login state stay *)
Theorem C04_setpin_effect : forall (s : state) (h : N) (x : session) (po pn : option bytes) (t : token),
  st_init s = true -> get_session s h = Some x -> alookup (s_tok x) (st_tokens s) = Some t ->
  let r := step s (OSetPin h po pn) in
  (snd r = RRv CKR_OK ->
     exists pnew, pn = Some pnew /\
     forall k, tok_pins (fst r) k =
               if s_tok x =? k then (if is_so (tok_login s (s_tok x)) then Some (pnew, t_userpin t, t_key t) else Some (t_sopin t, Some pnew, t_key t))
               else tok_pins s k) /\
  (forall k, tok_objs (fst r) k = tok_objs s k) /\ (forall k, tok_login (fst r) k = tok_login s k).
Proof.
  intros s h x po pn t Hi Hs Ht. cbv zeta.
  destruct po as [po|], pn as [pn|]; [destruct (pin_len_ok (blen pn)) eqn:El|..].
  2-5: (* a new PIN outside the range, or a PIN not given: refused before anything else, the state is the old one *)
       unfold step; rewrite Hi, Hs, ?El; cbn; (split; [discriminate|split; reflexivity]).
  destruct (setpin_answers s h x t po pn Hi Hs Ht El)
    as [Hso Hp | Hso Hp | up Hn Hrw Hup Hp | up Hn Hrw Hup Hp | Hn Hrw Hup | Hn Hrw]; cbn [fst snd].
  - (* SO logged in, old SO PIN right: the SO PIN is replaced *)
    destruct (upd_token_views s (s_tok x) (fun t => set_t_sopin t pn) t Ht eq_refl eq_refl) as (Hpins & Hobjs & Hlog).
    split; [intros _; exists pn; split; [reflexivity|]|split; assumption].
    intros k. rewrite Hso. apply Hpins.
  - (* SO logged in, old SO PIN wrong: refused *)
    split; [discriminate|split; reflexivity].
  - (* not the SO, R/W session, old user PIN right: the user PIN is replaced *)
    destruct (upd_token_views s (s_tok x) (fun t => set_t_userpin t (Some pn)) t Ht eq_refl eq_refl) as (Hpins & Hobjs & Hlog).
    split; [intros _; exists pn; split; [reflexivity|]|split; assumption].
    intros k. (* nobody or the user is logged in: is_so answers false *)
    destruct (tok_login s (s_tok x)); [apply Hpins|contradiction|apply Hpins].
  - (* ... old user PIN wrong: refused *)
    split; [discriminate|split; reflexivity].
  - (* ... no user PIN set: refused *)
    split; [discriminate|split; reflexivity].
  - (* not the SO, R/O session: refused *)
    split; [discriminate|split; reflexivity].
Qed.
Print Assumptions C04_setpin_effect.

(* a rejected attempt changes nothing at all *)
Theorem C04_rejected_changes_nothing : forall (s : state) (o : op) (rv : N),
  rv_of (snd (step s o)) = Some rv -> rv <> CKR_OK -> fst (step s o) = s.
Proof. exact fail_no_change. Qed.
Print Assumptions C04_rejected_changes_nothing.

(* PINs, master key and objects survive C_Finalize/C_Initialize and a new process *)
Theorem C04_restart_keeps_pins : forall (s : state) (b : bool) (k : N),
  tok_pins (restart s b) k = tok_pins s k /\ tok_objs (restart s b) k = tok_objs s k /\ tok_login (restart s b) k = LNone.
Proof. exact restart_keeps_pins. Qed.
Print Assumptions C04_restart_keeps_pins.

(* over any call: PINs / master key of token k change only by a successful C_InitPIN / C_SetPIN through a
   session of k or C_InitToken of k — "the PIN most recently set" is what is stored *)
Theorem C04_pins_change_only_by : forall (s : state) (o : op) (k : N),
  tok_pins (fst (step s o)) k = tok_pins s k \/ pin_event s o k.
Proof.
  intros s o k.
  destruct (step s o) as [s' r] eqn:Es. cbn [fst].
  destruct (step_token s o k s' r Es) as [(f & Ef & E)|(p & -> & -> & _)].
  2: { (* C_InitToken creates token k *) right. cbn [pin_event]. rewrite Es. auto. }
  (* the entry of k, if there is one, is now its image under f: the PINs and the key are those of f t *)
  assert (Hkeep : (forall t, (t_sopin (f t), t_userpin (f t), t_key (f t)) = (t_sopin t, t_userpin t, t_key t)) ->
                  tok_pins s' k = tok_pins s k).
  { intros Hf. unfold tok_pins. rewrite E. destruct (alookup k (st_tokens s)); cbn [option_map]; [rewrite Hf|]; reflexivity. }
  destruct Ef as [o r | o r | p | o x t f Hx Hk U | o x priv o1 hh Hx Hk N | h oh e oid ob Ho | h oh e oid ob tm o1 Ho].
  - (* E_none: the entry is kept *) left. apply Hkeep. reflexivity.
  - (* E_logged_out: only the login state changes *) left. apply Hkeep. reflexivity.
  - (* E_reinit: C_InitToken on k *) right. cbn [pin_event]. rewrite Es. auto.
  - (* E_update: a login or a PIN change through a session of k *)
    destruct U as [h p _ _ _ | h p up _ _ _ | h p _ _ | h po pn up _ _ _ _ | h po pn _ _ _]; cbn [sess_of] in Hx.
    + (* U_login_so *) left. apply Hkeep. reflexivity.
    + (* U_login_user *) left. apply Hkeep. reflexivity.
    + (* U_initpin *) right. cbn [pin_event]. rewrite Es. eauto.
    + (* U_setpin_user *) right. cbn [pin_event]. rewrite Es. eauto.
    + (* U_setpin_so *) right. cbn [pin_event]. rewrite Es. eauto.
  - (* E_new: a new token object *) left. apply Hkeep. reflexivity.
  - (* E_destroy: an object removed *) left. apply Hkeep. reflexivity.
  - (* E_setattr: an object rewritten *) left. apply Hkeep. reflexivity.
Qed.
Print Assumptions C04_pins_change_only_by.

(* private attribute values stay decryptable across PIN changes: the master key identity is part of
   [tok_pins] and C_InitPIN / C_SetPIN keep it (C04_initpin_spec, C04_setpin_effect); Token::decrypt only needs
   somebody logged in and the same key *)
Theorem C04_decrypt_needs_only_key : forall (tc tc' : tctx) enc b,
  tc_logged tc = tc_logged tc' -> tc_key tc = tc_key tc' -> tok_decrypt tc enc b = tok_decrypt tc' enc b.
Proof. intros tc tc' enc b. unfold tok_decrypt. intros -> ->. reflexivity. Qed.
Print Assumptions C04_decrypt_needs_only_key.

(* The model's decisions are the code's decisions: the return code of the model step equals the REGENERATED C_InitPIN /
   C_SetPIN (gen/Gen_Entry.v) applied to the abstraction of the model state; the token-level answers (is the old PIN the
   current one) are the model's set_user_rv / set_so_rv (EntryModel.v). *)
Theorem C04_initpin_model_is_code : forall (s : state) (h : N) (x : session) (pin : option bytes),
  st_init s = true -> get_session s h = Some x ->
  rv_of (snd (step s (OInitPin h pin))) = Some (C_InitPIN.app (initpin_env s h x pin)).
Proof. exact initpin_model_is_code. Qed.
Print Assumptions C04_initpin_model_is_code.
Theorem C04_setpin_model_is_code : forall (s : state) (h : N) (x : session) (t : token) (oldp newp : option bytes),
  st_init s = true -> get_session s h = Some x -> alookup (s_tok x) (st_tokens s) = Some t ->
  rv_of (snd (step s (OSetPin h oldp newp))) = Some (C_SetPIN.app (setpin_env s h x t oldp newp)).
Proof. exact setpin_model_is_code. Qed.
Print Assumptions C04_setpin_model_is_code.
