(* Properties_C14 — token initialisation, re-initialisation and isolation between tokens (core model).
   inv_tok is the structural invariant of the handle / session / session-object tables; it holds in every reachable
   state (C14_inv_tok_reachable). *)
From Coq Require Import List NArith Bool.
From SoftHSM Require Import Gen_Entry EntryModel Gen_Const Gen_Pure Defs Core AccessFacts StepFacts Invariants SessionSpec PinFacts HandleFacts TokenFacts AssocFacts.
Import ListNotations.
Local Open Scope N_scope.

Theorem C14_inv_tok_reachable : forall ops : list op, inv_tok (exec init_state ops).
Proof. exact inv_tok_reachable. Qed.
Print Assumptions C14_inv_tok_reachable.

(* nothing done through token j's sessions and the handles they returned changes anything of another token k:
   its PINs, login state, key, objects (inside alookup k (st_tokens _)), its sessions, session objects and handles *)
Theorem C14_isolation : forall (s : state) (o : op) (j k : N),
  inv_tok s -> st_init s = true -> addresses s o j -> j <> k -> tok_view (fst (step s o)) k = tok_view s k.
Proof. exact isolation. Qed.
Print Assumptions C14_isolation.

Theorem C14_isolation_trace : forall (ops0 ops : list op) (k : N),
  let s := exec init_state ops0 in addresses_other s ops k -> tok_view (exec s ops) k = tok_view s k.
Proof. intros ops0 ops k s. apply isolation_trace. apply inv_tok_reachable. Qed.
Print Assumptions C14_isolation_trace.

(* the hypothesis is satisfiable: a reachable two-token state *)
Theorem C14_isolation_example : forall o : op, addresses iso_state o 0 -> tok_view (fst (step iso_state o)) 1 = tok_view iso_state 1.
Proof. exact isolation_example_thm. Qed.
Print Assumptions C14_isolation_example.

(* C_InitToken on the free slot: a token with the given SO PIN, no user PIN, no objects; every other token untouched *)
Theorem C14_inittoken_fresh : forall (s : state) (p : bytes) (label : N),
  st_init s = true -> amem label (st_tokens s) = false -> pin_len_ok (blen p) = true ->
  let r := step s (OInitToken TFree (Some p) label) in
  snd r = RRv CKR_OK /\
  st_tokens (fst r) = st_tokens s ++ [(label, mkToken p None LNone (st_next_key s) [])] /\
  (forall k, k <> label -> tok_view (fst r) k = tok_view s k).
Proof. exact inittoken_fresh. Qed.
Print Assumptions C14_inittoken_fresh.

(* on an initialised token: exactly with the current SO PIN and no session open *)
Theorem C14_reinit_ok_iff : forall (s : state) (k : N) (p : bytes) (t0 : token),
  st_init s = true -> alookup k (st_tokens s) = Some t0 ->
  (snd (step s (OInitToken (TTok k) (Some p) k)) = RRv CKR_OK <->
   existsb (fun q => s_tok (snd q) =? k) (st_sessions s) = false /\ pin_len_ok (blen p) = true /\ pin_ok (t_sopin t0) p = true).
Proof.
  intros s k p t0 Hi Ht. rewrite (reinit_step s k p t0 Hi Ht).
  (* the three tests in the order the call makes them; each refusal falsifies its conjunct on the right *)
  destruct (existsb _ (st_sessions s)); cbn [snd].
  { (* a session is open on the token: CKR_SESSION_EXISTS *) split; [discriminate|]. intros (H & _ & _). discriminate. }
  destruct (pin_len_ok (blen p)); cbn [negb snd].
  2: { (* PIN length outside the range: CKR_PIN_INCORRECT *) split; [discriminate|]. intros (_ & H & _). discriminate. }
  destruct (pin_ok (t_sopin t0) p); cbn [snd].
  - (* no session, length in range, the current SO PIN: CKR_OK *) split; [intros _; auto|reflexivity].
  - (* not the current SO PIN: CKR_PIN_INCORRECT *) split; [discriminate|]. intros (_ & _ & H). discriminate.
Qed.
Print Assumptions C14_reinit_ok_iff.

(* ... and then all objects and the user PIN are gone, the SO PIN and the key stay, other tokens are untouched *)
Theorem C14_reinit_effect : forall (s : state) (k : N) (p : bytes) (t0 : token),
  st_init s = true -> alookup k (st_tokens s) = Some t0 ->
  let r := step s (OInitToken (TTok k) (Some p) k) in
  snd r = RRv CKR_OK ->
  alookup k (st_tokens (fst r)) = Some (mkToken (t_sopin t0) None LNone (t_key t0) []) /\
  st_sessions (fst r) = st_sessions s /\ st_handles (fst r) = st_handles s /\ st_sobjs (fst r) = st_sobjs s /\
  (forall k', k' <> k -> tok_view (fst r) k' = tok_view s k').
Proof.
  intros s k p t0 Hi Ht. cbv zeta. rewrite (reinit_step s k p t0 Hi Ht).
  (* a refusal - session open, PIN length outside the range, not the current SO PIN - does not answer CKR_OK *)
  destruct (existsb _ (st_sessions s)); [discriminate|].
  destruct (pin_len_ok (blen p)); cbn [negb]; [|discriminate].
  destruct (pin_ok (t_sopin t0) p); [|discriminate].
  (* accepted: the entry of k is replaced, nothing else is touched *)
  cbn [fst snd]. intros _. simp_state. split; [apply alookup_aset_eq|]. repeat (split; [reflexivity|]).
  intros k' Hne. apply tok_view_eq; simp_state; try reflexivity. apply alookup_aset_neq, Hne.
Qed.
Print Assumptions C14_reinit_effect.

(* after a restart (C_Finalize / C_Initialize or a new process) every token is there with the same PINs, key, objects *)
Theorem C14_restart_keeps_tokens : forall (s : state) (b : bool),
  (forall k,
     option_map t_sopin (alookup k (st_tokens (restart s b))) = option_map t_sopin (alookup k (st_tokens s)) /\
     option_map t_userpin (alookup k (st_tokens (restart s b))) = option_map t_userpin (alookup k (st_tokens s)) /\
     option_map t_key (alookup k (st_tokens (restart s b))) = option_map t_key (alookup k (st_tokens s)) /\
     option_map t_objs (alookup k (st_tokens (restart s b))) = option_map t_objs (alookup k (st_tokens s)) /\
     option_map t_login (alookup k (st_tokens (restart s b))) = option_map (fun _ => LNone) (alookup k (st_tokens s))) /\
  akeys (st_tokens (restart s b)) = akeys (st_tokens s) /\
  st_sessions (restart s b) = [] /\ st_handles (restart s b) = [] /\ st_sobjs (restart s b) = [] /\
  st_init (restart s b) = b.
Proof.
  intros s b.
  split; [|split; [|repeat split]].
  - intros k. rewrite restart_lookup. destruct (alookup k (st_tokens s)); cbn; repeat split; reflexivity.
  - unfold restart, akeys. cbn [st_tokens]. rewrite map_map. apply map_ext. reflexivity.
Qed.
Print Assumptions C14_restart_keeps_tokens.

(* the model's C_InitToken decision is the code's: the step's return code equals the REGENERATED SoftHSM::C_InitToken
   applied to the abstraction of the state (slot found, session on the slot or not, Slot::initToken answering the
   model's token-level verdict) *)
Theorem C14_inittoken_model_is_code : forall (s : state) (t : tref) (tk : option N) (pin : option bytes) (label inner : N),
  st_init s = true -> resolve s t = Some tk ->
  (forall p, pin = Some p -> slot_inittoken_rv s tk p label = Some inner) ->
  rv_of (snd (step s (OInitToken t pin label))) = Some (C_InitToken.app (inittoken_env s tk pin inner)).
Proof. exact inittoken_model_is_code. Qed.
Print Assumptions C14_inittoken_model_is_code.
