(* Properties_C05 — the on-disk object format is a faithful, stable codec, and (core model) token objects persist.
   Codec theorems are over Store/Codec.v, tied to ObjectFile.cpp / File.cpp by the K-codec correspondence (every file
   the library writes during the check decodes in the model, re-encodes to the same bytes and carries the values the
   API returns); the theorems about token objects are over the core model, tied by K-api. *)
From Coq Require Import List NArith Bool Lia.
From SoftHSM Require Import Gen_Const Gen_Pure Defs Core AccessFacts StepFacts Invariants SessionSpec PinFacts HandleFacts TokenFacts PersistFacts Codec CodecFacts.
Import ListNotations.
Local Open Scope N_scope.

(* reading back what was written returns exactly the generation and the attributes, for every well-formed object:
   every attribute kind, nested templates, mechanism sets, byte strings of any length below 2^64 *)
Theorem C05_decode_encode : forall gen o, gen < 2 ^ 64 -> wf_obj o = true -> decode_obj (encode_obj gen o) = Some (gen, o).
Proof. exact decode_encode. Qed.
Print Assumptions C05_decode_encode.

(* in terms of what the API layer sees (sets and maps normalised) for objects in canonical order *)
Theorem C05_decode_encode_view : forall gen o, gen < 2 ^ 64 -> wf_obj o = true -> canon_obj o = true ->
  match decode_obj (encode_obj gen o) with Some (g, o') => Some (g, view_obj o') | None => None end = Some (gen, o).
Proof. exact decode_encode_view. Qed.
Print Assumptions C05_decode_encode_view.

(* when the reader gives up: exactly the invalid files and the stubs shorter than a generation number *)
Theorem C05_decode_none_iff : forall b, decode_obj b = None <-> refresh_file b = RInvalid \/ (length b < 8)%nat.
Proof. exact decode_obj_None. Qed.
Print Assumptions C05_decode_none_iff.

(* a file written by the pinned version (all attribute kinds) decodes and re-encodes byte-identically in the model *)
Theorem C05_golden_file_example :
  match decode_obj real_file with
  | Some (g, o) => (g, length o, wf_obj o, canon_obj o, bytes_eqb (encode_obj g o) real_file) | None => (0, 0%nat, false, false, false)
  end = (35, 32%nat, true, true, true).
Proof. vm_compute. reflexivity. Qed.
Print Assumptions C05_golden_file_example.

(* a restart keeps every token's objects with identical attribute values *)
Theorem C05_restart_keeps_objects : forall (s : state) (b : bool) (k : N), tok_objs (restart s b) k = tok_objs s k.
Proof. exact restart_keeps_objs. Qed.
Print Assumptions C05_restart_keeps_objects.

(* only a SUCCESSFUL create / copy / destroy / set-attribute / init-token changes any token object: logins, logouts,
   PIN changes, closing sessions, searches, reads, failed calls and restarts leave them byte for byte as they were *)
Theorem C05_objects_change_only_by : forall (s : state) (o : op) (k : N),
  tok_objs (fst (step s o)) k = tok_objs s k \/ obj_event s o.
Proof. exact objs_change_only_by. Qed.
Print Assumptions C05_objects_change_only_by.

Theorem C05_persist_trace : forall (ops : list op) (s : state) (k : N),
  no_obj_event s ops -> tok_objs (exec s ops) k = tok_objs s k.
Proof.
  intros ops s k. revert ops s. apply (exec_keeps_view (fun s => tok_objs s k) no_obj_event).
  intros s o r [H1 H2]. split; [|exact H2]. destruct (objs_change_only_by s o k); [assumption|contradiction].
Qed.
Print Assumptions C05_persist_trace.

(* destroyed objects never reappear: an object id that is absent and already issued stays absent for ever *)
Theorem C05_absent_never_reappears : forall (ops : list op) (s : state) (i : N),
  i < st_next_oid s -> ~ In i (oids s) -> ~ In i (oids (exec s ops)).
Proof. exact absent_never_reappears. Qed.
Print Assumptions C05_absent_never_reappears.

(* ... for ever, in a reachable state *)
Theorem C05_destroyed_object_never_reappears : forall (ops0 : list op) (h oh : N) e l ob,
  let s := exec init_state ops0 in
  get_object s oh = Some (e, l, ob) -> snd (step s (ODestroy h oh)) = RRv CKR_OK ->
  forall ops, ~ In (loc_oid l) (oids (exec (fst (step s (ODestroy h oh))) ops)).
Proof.
  intros ops0 h oh e l ob s Hg Hok ops. destruct (inv_oids_reachable ops0) as [Hinv Hu]. fold s in Hinv, Hu.
  destruct (destroy_removes_oid s h oh e l ob Hu Hg Hok) as [Hin Hout].
  apply absent_never_reappears; [|exact Hout]. apply Hinv in Hin. pose proof (next_oid_mono s (ODestroy h oh)). lia.
Qed.
Print Assumptions C05_destroyed_object_never_reappears.

(* session objects never outlive their session *)
Theorem C05_session_objects_die : forall s : state,
  (forall h x, inv_tok s -> st_init s = true -> get_session s h = Some x ->
     forall p, In p (st_sobjs (fst (step s (OClose h)))) -> so_sess (snd p) <> h) /\
  (forall k, st_init s = true -> amem k (st_tokens s) = true ->
     forall p, In p (st_sobjs (fst (step s (OCloseAll (TTok k))))) -> so_tok (snd p) <> k) /\
  (forall b, st_sobjs (restart s b) = []).
Proof.
  intros s.
  split; [|split].
  - intros h x Hinv Hi Hx. apply (close_kills_session_objects s h x Hinv Hi Hx).
  - intros k Hi Hk. apply (closeall_kills_session_objects s k Hi Hk).
  - reflexivity.
Qed.
Print Assumptions C05_session_objects_die.
