(* Properties_C18 — thread safety with locking enabled.
   An executable Gallina model cannot exhibit thread schedules of the C++; what is proved is the bookkeeping that the
   locks are there to protect, for ALL interleavings of the critical sections: handle registration (the manager's
   mutex held across lookup and insertion) never issues a handle twice and never gives an object two handles; the
   split variant does (refuted).  Linearizability itself is decided on the built library by K-thread, which compares
   every controlled schedule with the two sequential orders. *)
From Coq Require Import List NArith Bool.
From SoftHSM Require Import HandleAtomic.
Import ListNotations.
Local Open Scope N_scope.

(* whatever the threads register and in whatever order their atomic steps interleave: no handle is issued twice and
   no object has two handles *)
Theorem C18_atomic_registration_unique_partial : forall os : list N,
  let r := fst (run empty os) in NoDup (map fst (table r)) /\ NoDup (map snd (table r)).
Proof. intros os. cbn zeta. destruct (run_inv os empty empty_inv) as (_ & H1 & H2). split; assumption. Qed.
Print Assumptions C18_atomic_registration_unique_partial.

(* a registered object keeps its handle: a second registration returns the first one *)
Theorem C18_registered_object_keeps_its_handle : forall r o, inv r -> snd (register (fst (register r o)) o) = snd (register r o).
Proof.
  intros r o _. unfold register at 2 3. destruct (handle_of o (table r)) eqn:E; cbn [fst snd].
  - unfold register. rewrite E. reflexivity.
  - unfold register. cbn [table]. cbn [handle_of]. rewrite N.eqb_refl. reflexivity.
Qed.
Print Assumptions C18_registered_object_keeps_its_handle.

Theorem C18_split_registration_refuted :
  let r0 := empty in
  let m1 := lookup_only r0 7 in
  let m2 := lookup_only r0 7 in
  let r1 := fst (insert_only r0 7) in
  let r2 := fst (insert_only r1 7) in
  (m1, m2, table r2) = (None, None, [(2, 7); (1, 7)]).
Proof. exact split_registration_duplicates. Qed.
Print Assumptions C18_split_registration_refuted.

(* The whole HandleManager as atomic steps (every public method holds handlesMutex for its whole body): any execution of
   any number of threads is a sequence of these steps in some order. *)
From SoftHSM Require HandleLife.

Theorem C18_live_handles_distinct_any_interleaving : forall xs : list HandleLife.op,
  NoDup (map HandleLife.eh (HandleLife.handles (HandleLife.run HandleLife.init xs))) /\
  HandleLife.bounded (HandleLife.run HandleLife.init xs).
Proof. exact HandleLife.live_handles_distinct. Qed.
Print Assumptions C18_live_handles_distinct_any_interleaving.

Theorem C18_dead_handle_stays_dead_any_interleaving : forall (xs : list HandleLife.op) (m : HandleLife.mgr) (h : N),
  h <= HandleLife.ctr m -> ~ HandleLife.live m h -> ~ HandleLife.live (HandleLife.run m xs) h.
Proof. exact HandleLife.dead_handle_stays_dead. Qed.
Print Assumptions C18_dead_handle_stays_dead_any_interleaving.

Theorem C18_dead_handle_never_returned_any_interleaving :
  forall (xs : list HandleLife.op) (m : HandleLife.mgr) (h : N) (x : HandleLife.op),
  0 < h -> h <= HandleLife.ctr m -> ~ HandleLife.live m h -> snd (HandleLife.step (HandleLife.run m xs) x) <> h.
Proof. exact HandleLife.dead_handle_never_returned. Qed.
Print Assumptions C18_dead_handle_never_returned_any_interleaving.

Theorem C18_registered_object_keeps_handle_full_manager : forall m slot hs priv o hs' priv',
  snd (HandleLife.step m (HandleLife.AddObject slot hs priv o)) <> 0 ->
  snd (HandleLife.step (fst (HandleLife.step m (HandleLife.AddObject slot hs priv o))) (HandleLife.AddObject slot hs' priv' o))
  = snd (HandleLife.step m (HandleLife.AddObject slot hs priv o)).
Proof. exact HandleLife.registered_object_keeps_handle. Qed.
Print Assumptions C18_registered_object_keeps_handle_full_manager.

(* non-vacuity: session 1 and its session object 2 die; later calls get 4, never 1 or 2 *)
Theorem C18_handle_life_example :
  let m := HandleLife.run HandleLife.init [HandleLife.AddSession 5 100; HandleLife.AddObject 5 1 false 200;
                                           HandleLife.AddSession 6 101; HandleLife.SessionClosed 1] in
  (map HandleLife.eh (HandleLife.handles m), HandleLife.ctr m,
   snd (HandleLife.step m (HandleLife.AddObject 5 0 false 200)), snd (HandleLife.step m (HandleLife.AddSession 5 102)))
  = ([3], 3, 4, 4).
Proof. exact HandleLife.life_example. Qed.
Print Assumptions C18_handle_life_example.
