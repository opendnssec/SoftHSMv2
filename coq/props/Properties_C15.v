(* Properties_C15 — processes sharing a token directory see each other's committed changes.
   Model: Conc/Refresh.v, the per-object generation protocol at call granularity (any number of processes, any
   interleaving of their calls). *)
From Coq Require Import List NArith Bool.
From SoftHSM Require Import Refresh.
Import ListNotations.
Local Open Scope N_scope.

(* in every state reached by any interleaving, a read by any process returns what is committed on disk *)
Theorem C15_reads_see_committed : forall (val : Type) (v : val) (es : list (event val)) (p : N),
  let w := fst (run val (initial val v) es) in snd (step val w (ERead val p)) = Some (d_val val w).
Proof. exact reads_see_committed. Qed.
Print Assumptions C15_reads_see_committed.

(* the committed value is the fold of all writes in call order: no committed change is lost or applied twice *)
Theorem C15_committed_is_fold_of_writes : forall (val : Type) (es : list (event val)) (w : world val),
  coherent val w -> d_val val (fst (run val w es)) = writes val es (d_val val w).
Proof. exact committed_is_fold. Qed.
Print Assumptions C15_committed_is_fold_of_writes.

(* the step of the protocol this rests on: the writer numbers its write from the generation in the FILE
   (Generation::sync); numbering from the cached generation lets a process serve an overwritten value for ever *)
Theorem C15_without_sync_refuted :
  let w0 := initial N 10 in
  let w1 := fst (step N w0 (ERead N 1)) in
  let w2 := fst (step N w1 (ERead N 2)) in
  let w3 := fst (step_nosync N w2 (EWrite N 1 (fun _ => 11))) in
  let w4 := fst (step_nosync N w3 (EWrite N 2 (fun _ => 12))) in
  (d_val N w4, snd (step N w4 (ERead N 1))) = (12, Some 11).
Proof. exact nosync_serves_stale. Qed.
Print Assumptions C15_without_sync_refuted.

(* at file-operation granularity the library's write is NOT the atomic step above: the copy is taken before the lock
   (known finding F12, exhibited on the built library by K-race) *)
Theorem C15_split_write_loses_update_refuted :
  let w0 := initial (N * N) (1, 1) in
  let ca := begin_write (N * N) w0 1 in
  let w1 := fst (step (N * N) w0 (EWrite (N * N) 2 (fun v => (2, snd v)))) in
  let w2 := commit_write (N * N) w1 1 ca (fun v => (fst v, 5)) in
  (d_val (N * N) w1, d_val (N * N) w2) = ((2, 1), (1, 5)).
Proof. exact split_write_loses_update. Qed.
Print Assumptions C15_split_write_loses_update_refuted.
