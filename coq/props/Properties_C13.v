(* Properties_C13 — wrap, unwrap and derive produce exactly the specified keys: the padding, cutting and
   parity logic of SoftHSM.cpp (RFC5652Pad/Unpad, RFC3394Pad, deriveSymmetric, crypto/odd.h) for every
   input; the block cipher is abstract (any E, D with D (E b) = b).  Then, over regenerated code: the length a derived
   key is given (derive*, checkKeyLength) and what C_UnwrapKey stores in the object it creates. *)
From Coq Require Import List NArith Bool Arith Lia.
From SoftHSM Require Import Defs Pad PadFacts Modes ModesFacts Gen_Parity Gen_Const Gen_Entry Derive DeriveFacts ListFacts.
Import ListNotations.

(* PKCS#7 (RFC 5652) padding as used by CKM_AES_CBC_PAD / CKM_DES3_CBC_PAD wrapping *)
Theorem C13_unpad_pad : forall (bs : nat) (d : bytes), 1 <= bs <= 255 -> pkcs7_unpad bs (pkcs7_pad bs d) = Some d.
Proof. exact unpad_pad_gen. Qed.
Print Assumptions C13_unpad_pad.
(* only canonical paddings are accepted: whatever unpads is the padding of what comes out *)
Theorem C13_unpad_sound : forall (bs : nat) (p d : bytes), bs <= 255 -> pkcs7_unpad bs p = Some d -> p = pkcs7_pad bs d.
Proof. exact unpad_sound. Qed.
Print Assumptions C13_unpad_sound.
Theorem C13_unpad_empty_rejected : forall bs, pkcs7_unpad bs [] = None.
Proof. exact unpad_empty. Qed.
Print Assumptions C13_unpad_empty_rejected.
Theorem C13_unpad_misaligned_rejected : forall bs p, Nat.modulo (length p) bs <> 0 -> pkcs7_unpad bs p = None.
Proof.
  intros [|bs'] p H; [reflexivity|]. unfold pkcs7_unpad.
  destruct (Nat.eqb_spec (length p mod S bs') 0); [contradiction | reflexivity].
Qed.
Print Assumptions C13_unpad_misaligned_rejected.

(* unwrapping what CBC-PAD wrapping produced under the caller's IV yields the same key value *)
Theorem C13_unwrap_wrap_cbc_pad : forall (bs : nat) (E D : bytes -> bytes),
  1 <= bs -> (forall b, length b = bs -> length (E b) = bs) -> (forall b, length b = bs -> D (E b) = b) ->
  forall (iv keydata : bytes), bs <= 255 -> length iv = bs ->
  exists w, wrap_cbc_pad bs E iv keydata = Some w /\ unwrap_cbc_pad bs D iv w = Some keydata.
Proof. exact unwrap_wrap. Qed.
Print Assumptions C13_unwrap_wrap_cbc_pad.
Theorem C13_wrap_cbc_pad_is_padded_cbc : forall (bs : nat) (E : bytes -> bytes), 1 <= bs ->
  forall iv keydata, wrap_cbc_pad bs E iv keydata = encrypt_all bs E CBC true iv keydata.
Proof. exact wrap_cbc_pad_spec. Qed.
Print Assumptions C13_wrap_cbc_pad_is_padded_cbc.

(* CKM_AES_KEY_WRAP carries no length: the value is zero-extended to a multiple of eight bytes *)
Theorem C13_rfc3394_pad_length : forall d : bytes,
  Nat.modulo (length (rfc3394_pad d)) 8 = 0 /\ length d <= length (rfc3394_pad d) < length d + 8.
Proof. exact rfc3394_pad_length. Qed.
Print Assumptions C13_rfc3394_pad_length.
Theorem C13_rfc3394_pad_prefix : forall d : bytes, firstn (length d) (rfc3394_pad d) = d.
Proof. exact rfc3394_pad_prefix. Qed.
Print Assumptions C13_rfc3394_pad_prefix.
Theorem C13_rfc3394_pad_zeros : forall d : bytes,
  skipn (length d) (rfc3394_pad d) = repeat 0%N (length (rfc3394_pad d) - length d).
Proof.
  intros d. destruct (rfc3394_pad_shape d) as [z [_ [-> _]]].
  rewrite skipn_app_len, app_length, repeat_length. f_equal. lia.
Qed.
Print Assumptions C13_rfc3394_pad_zeros.

(* a derived key is the leading bytes of the mechanism's value, refused when too short ... *)
Theorem C13_derive_cut : forall (n : nat) (s v : bytes), derive_cut n s = Some v ->
  n <= length s /\ length v = n /\ v = firstn n s /\ (exists t, s = v ++ t).
Proof. exact derive_cut_some. Qed.
Print Assumptions C13_derive_cut.
Theorem C13_derive_too_short : forall n s, derive_cut n s = None <-> (length s < n)%nat.
Proof.
  intros n s. unfold derive_cut.
  destruct (Nat.ltb_spec (length s) n) as [Hlt|Hle]; split; intros H; try discriminate; try lia.
  reflexivity.
Qed.
Print Assumptions C13_derive_too_short.
(* ... and parity-adjusted for DES keys: odd parity in every byte, top seven bits unchanged *)
Theorem C13_derive_des_parity : forall (n : nat) (s v : bytes), Forall (fun x => (x < 256)%N) s ->
  derive_value true n s = Some v ->
  Forall (fun y => N.odd (popcount y) = true /\ (y < 256)%N) v /\
  map (fun x => (x / 2)%N) v = map (fun x => (x / 2)%N) (firstn n s).
Proof. exact derive_value_des_parity. Qed.
Print Assumptions C13_derive_des_parity.

(* the table of crypto/odd.h, REGENERATED from the current source, is the arithmetic odd-parity function *)
Theorem C13_parity_table_is_odd_parity : gen_odd_parity = map odd_parity_byte all_bytes.
Proof. vm_compute. reflexivity. Qed.
Print Assumptions C13_parity_table_is_odd_parity.
Theorem C13_odd_parity_byte_spec : forall b : N, (b < 256)%N ->
  N.odd (popcount (odd_parity_byte b)) = true /\ (b / 2 = odd_parity_byte b / 2)%N.
Proof. exact odd_parity_byte_spec. Qed.
Print Assumptions C13_odd_parity_byte_spec.

(* The length of a derived key, over the regenerated deriveDH / deriveECDH / deriveEDDSA / deriveSymmetric
   (gen/Gen_Entry.v, translated up to the call of the crypto backend).  `app e = SENT + n` says "the derivation is
   reached, with byteLen = n" (SENT = 2^64 lies above every return code, DeriveFacts.v); n is then the model's length
   (Derive.v) for the key type and the CKA_VALUE_LEN of the template (`hv1_byteLen`: whatever the scan of the template,
   a havoc'ed loop, has left). *)
Local Open Scope N_scope.

Theorem C13_deriveDH_len : forall (e : deriveDH.env),
  (forall n, deriveDH.zz_rest e n = SENT + n) -> deriveDH.hv1_loop_rv e < SENT ->
  forall n, deriveDH.app e = SENT + n ->
  deriveDH.hv1_loop_returns e = false /\ derive_len_strict (deriveDH.keyType e) (deriveDH.hv1_byteLen e) = inr n.
Proof. exact deriveDH_len. Qed.
Print Assumptions C13_deriveDH_len.

Theorem C13_deriveSymmetric_len : forall (e : deriveSymmetric.env),
  (forall n, deriveSymmetric.zz_rest e n = SENT + n) -> deriveSymmetric.hv1_loop_rv e < SENT ->
  forall n, deriveSymmetric.app e = SENT + n ->
  deriveSymmetric.hv1_loop_returns e = false /\
  let m := deriveSymmetric.pMechanism_mechanism e in
  let req := deriveSymmetric.hv1_byteLen e in
  if (0 <? req) || (negb (m =? CKM_CONCATENATE_DATA_AND_BASE) && negb (m =? CKM_CONCATENATE_BASE_AND_DATA) && negb (m =? CKM_CONCATENATE_BASE_AND_KEY))
  then derive_len_strict (deriveSymmetric.keyType e) req = inr n
  else n = 0.        (* the concatenations without CKA_VALUE_LEN: the length is that of the concatenation, checked by
                        checkKeyLength later *)
Proof. exact deriveSymmetric_len. Qed.
Print Assumptions C13_deriveSymmetric_len.

Theorem C13_deriveECDH_len : forall (e : deriveECDH.env),
  (forall n, deriveECDH.zz_rest e n = SENT + n) -> deriveECDH.hv1_loop_rv e < SENT ->
  forall n, deriveECDH.app e = SENT + n ->
  deriveECDH.hv1_loop_returns e = false /\ derive_len_lax (deriveECDH.keyType e) (deriveECDH.hv1_byteLen e) = inr n.
Proof. exact deriveECDH_len. Qed.
Print Assumptions C13_deriveECDH_len.

Theorem C13_deriveEDDSA_len : forall (e : deriveEDDSA.env),
  (forall n, deriveEDDSA.zz_rest e n = SENT + n) -> deriveEDDSA.hv1_loop_rv e < SENT ->
  forall n, deriveEDDSA.app e = SENT + n ->
  deriveEDDSA.hv1_loop_returns e = false /\ derive_len_lax (deriveEDDSA.keyType e) (deriveEDDSA.hv1_byteLen e) = inr n.
Proof. exact deriveEDDSA_len. Qed.
Print Assumptions C13_deriveEDDSA_len.

(* checkKeyLength (regenerated) accepts exactly the lengths `len_fits`; what the length models let through fits.
   `agree_value` is the hand model (Derive.v) of what deriveECDH / deriveEDDSA do with the length: default, cut, parity. *)
Theorem C13_checkKeyLength_spec : forall (kt n : N), gen_SoftHSM__checkKeyLength kt n = CKR_OK <-> len_fits kt n = true.
Proof. exact checkKeyLength_spec. Qed.
Print Assumptions C13_checkKeyLength_spec.

Theorem C13_strict_len_fits : forall (kt req n : N), derive_len_strict kt req = inr n -> len_fits kt n = true /\ n <> 0.
Proof. exact strict_len_fits. Qed.
Print Assumptions C13_strict_len_fits.

Theorem C13_agreed_value_fits : forall (kt req n : N) (secret v : bytes),
  derive_len_lax kt req = inr n -> agree_value kt n secret = Some v ->
  len_fits kt (N.of_nat (length v)) = true /\
  (kt = CKK_GENERIC_SECRET -> length v = if req =? 0 then length secret else N.to_nat req).
Proof. exact agreed_value_fits. Qed.
Print Assumptions C13_agreed_value_fits.

(* imported here and not at the head: Gen_Keys has modules of the same names as Gen_Entry (C_UnwrapKey, deriveDH, ...) and
   KeyGenSpec a `has` of its own; from this line on the names mean those *)
From SoftHSM Require Import Gen_Keys KeyGenSpec KeyGenFacts.

(* C_UnwrapKey regenerated whole (gen/Gen_Keys.v): what the key object it creates is given - value (encrypted when private),
   CKA_LOCAL / CKA_ALWAYS_SENSITIVE / CKA_NEVER_EXTRACTABLE false *)
Theorem C13_unwrapped_key_attributes : forall (e : C_UnwrapKey.env),
  (forall v, In (CKA_VALUE, v) (snd (C_UnwrapKey.app e)) -> C_UnwrapKey.extractObjectInformation_gives_isPrivate e <> 0 -> exists x, v = C_UnwrapKey.token_encrypt_out_value e x) /\
  (forall v, In (CKA_LOCAL, v) (snd (C_UnwrapKey.app e)) -> v = 0) /\
  (forall v, In (CKA_ALWAYS_SENSITIVE, v) (snd (C_UnwrapKey.app e)) -> v = 0) /\
  (forall v, In (CKA_NEVER_EXTRACTABLE, v) (snd (C_UnwrapKey.app e)) -> v = 0) /\
  (fst (C_UnwrapKey.app e) = 0 -> (C_UnwrapKey.extractObjectInformation_gives_objClass e = CKO_SECRET_KEY -> exists v, In (CKA_VALUE, v) (snd (C_UnwrapKey.app e))) /\
     (exists v, In (CKA_LOCAL, v) (snd (C_UnwrapKey.app e))) /\ (exists v, In (CKA_ALWAYS_SENSITIVE, v) (snd (C_UnwrapKey.app e))) /\
     (exists v, In (CKA_NEVER_EXTRACTABLE, v) (snd (C_UnwrapKey.app e)))).
Proof. exact unwrapped_key_attributes. Qed.
Print Assumptions C13_unwrapped_key_attributes.
