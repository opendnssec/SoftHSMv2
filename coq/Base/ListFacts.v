(* Base/ListFacts.v — facts about lists that Coq's List does not have in this form *)
From Coq Require Import List Arith.
Import ListNotations.

Lemma firstn_app_len : forall (A : Type) (a r : list A), firstn (length a) (a ++ r) = a.
Proof. intros A a r. rewrite <- (Nat.add_0_r (length a)), firstn_app_2, firstn_O. apply app_nil_r. Qed.

Lemma skipn_app_len : forall (A : Type) (a r : list A), skipn (length a) (a ++ r) = r.
Proof. intros A a r. rewrite skipn_app, skipn_all, Nat.sub_diag. reflexivity. Qed.

Lemma last_app_ne : forall (A : Type) (l r : list A) (d : A), r <> [] -> last (l ++ r) d = last r d.
Proof.
  intros A l r d Hr. rewrite (app_removelast_last d Hr) at 1. rewrite app_assoc. apply last_last.
Qed.
