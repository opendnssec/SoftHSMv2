(* Store/CrashFacts.v — what an in-place rewrite of an object file leaves on disk when the process dies or a write fails
   in the middle (ObjectFile::store -> writeAttributes: ftruncate(0), buffered writes, flush), read back with the
   codec model.  (C16, C09 fault clause) *)
From Coq Require Import List NArith Arith Lia.
From SoftHSM Require Import Defs Codec CodecFacts.
Import ListNotations.
Local Open Scope N_scope.

(* the file holds the old bytes (before the truncate) or a prefix of the new bytes: n = 0 right after the truncate,
   n >= length new once everything has been flushed *)
Inductive on_disk (old new : bytes) : bytes -> Prop :=
| disk_old : on_disk old new old
| disk_prefix (n : nat) : on_disk old new (firstn n new).

Lemma encode_obj_length gen o : length (encode_obj gen o) = (8 + length (encode_attrs o))%nat.
Proof. unfold encode_obj. rewrite app_length, be8_length. reflexivity. Qed.

Lemma split_point : forall (o : cobj) (m : nat), (m < length (encode_attrs o))%nat ->
  exists k p j, nth_error o k = Some p /\ m = (length (encode_attrs (firstn k o)) + j)%nat /\ (j < length (enc_attr p))%nat.
Proof.
  induction o as [|p r IH]; intros m Hm.
  - cbn in Hm. lia.
  - change (encode_attrs (p :: r)) with (enc_attr p ++ encode_attrs r) in Hm. rewrite app_length in Hm.
    destruct (Nat.ltb_spec m (length (enc_attr p))) as [E|E].
    + exists 0%nat, p, m. split; [reflexivity|]. split; [cbn; lia|exact E].
    + destruct (IH (m - length (enc_attr p))%nat) as (k & q & j & Hk & Hj & Hl); [lia|].
      exists (S k), q, j. cbn [nth_error firstn]. split; [exact Hk|]. split; [|exact Hl].
      change (encode_attrs (p :: firstn k r)) with (enc_attr p ++ encode_attrs (firstn k r)).
      rewrite app_length. lia.
Qed.

(* the classification of everything a crash can leave: the old file, the new file, a stub shorter than the generation
   number (which ObjectFile::refresh treats as an empty, VALID object), a file the reader rejects, or - when the cut
   falls within 7 bytes after an attribute boundary - a file the reader ACCEPTS with only the first k attributes *)
Theorem crash_state_cases : forall gen o old s,
  gen < 2 ^ 64 -> wf_obj o = true -> on_disk old (encode_obj gen o) s ->
  s = old \/ s = encode_obj gen o \/ (length s < 8)%nat \/ decode_obj s = None \/
  exists k, (k < length o)%nat /\ decode_obj s = Some (gen, firstn k o).
Proof.
  intros gen o old s Hg Hw Hd. destruct Hd as [|n]; [left; reflexivity|right].
  destruct (Nat.leb_spec (length (encode_obj gen o)) n) as [E1|E1]; [left; apply firstn_all2; exact E1|right].
  destruct (Nat.ltb_spec n 8) as [E2|E2]; [left; rewrite firstn_length; lia|right].
  rewrite encode_obj_length in E1.
  destruct (split_point o (n - 8)%nat) as (k & p & j & Hk & Hj & Hl); [lia|].
  replace n with (length (encode_obj gen (firstn k o)) + j)%nat by (rewrite encode_obj_length; lia).
  destruct (Nat.ltb_spec j 8) as [E3|E3].
  - right. exists k. split; [apply nth_error_Some; rewrite Hk; discriminate|apply decode_prefix_attr; assumption].
  - left. apply (decode_prefix_reject gen o k p j); try assumption. lia.
Qed.

(* ... so the rewrite is not atomic: there are crash states that are neither the old nor the new object.
   The witness is the state right after the truncate. *)
Theorem crash_atomicity_refuted :
  exists gen o old s, gen < 2 ^ 64 /\ wf_obj o = true /\ on_disk old (encode_obj gen o) s /\
    decode_obj s <> decode_obj old /\ decode_obj s <> decode_obj (encode_obj gen o).
Proof.
  exists 2, [(3, CBytes [107])], (encode_obj 1 [(3, CBytes [106])]), [].
  split; [reflexivity|]. split; [reflexivity|]. split; [exact (disk_prefix _ _ 0)|].
  split; vm_compute; discriminate.
Qed.

(* a half-written file that is accepted: cut exactly after the first attribute *)
Definition example_obj : cobj := [(0, CULong 4); (3, CBytes [107; 101; 121]); (17, CBytes [1; 2; 3; 4])].
Theorem partial_object_accepted_example :
  exists n, decode_obj (firstn n (encode_obj 7 example_obj)) = Some (7, firstn 1 example_obj).
Proof. exists 32%nat. vm_compute. reflexivity. Qed.

(* the only accepted partial states are attribute prefixes: nothing a crash leaves decodes to attributes that the
   new object does not have, or to wrong values *)
Corollary crash_never_invents : forall gen o old s g' o',
  gen < 2 ^ 64 -> wf_obj o = true -> on_disk old (encode_obj gen o) s -> s <> old ->
  decode_obj s = Some (g', o') -> g' = gen /\ exists k, o' = firstn k o.
Proof.
  intros gen o old s g' o' Hg Hw Hd Hne Hdec.
  destruct (crash_state_cases gen o old s Hg Hw Hd) as [H|[H|[H|[H|(k & Hk & H)]]]].
  - contradiction.
  - subst s. rewrite (decode_encode gen o Hg Hw) in Hdec. injection Hdec as Hg' Ho'. split; [symmetry; exact Hg'|].
    exists (length o). rewrite <- Ho'. symmetry. apply firstn_all.
  - assert (decode_obj s = None) by (apply decode_obj_None; right; exact H). congruence.
  - congruence.
  - rewrite H in Hdec. injection Hdec as Hg' Ho'. split; [symmetry; exact Hg'|]. exists k. symmetry. exact Ho'.
Qed.
