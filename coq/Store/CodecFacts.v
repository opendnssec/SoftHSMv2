(* Store/CodecFacts.v — the readers of Store/Codec.v against its writers: what each reader does on a file that
   starts with an encoding and is cut off anywhere (round trip, stray bytes after the end, truncation), when
   [decode_obj] answers None, and the container view of canonical objects; examples, one of them a file written
   by the library. *)
From Coq Require Import List NArith Arith Bool Lia ZifyBool.
From SoftHSM Require Import ListFacts Defs Codec.
Import ListNotations.
Local Open Scope N_scope.

(* be8 n is a list of eight quotients and read_ulong a match eight conses deep: kept folded under simpl / cbn *)
Arguments be8 : simpl never.
Arguments be8_decode : simpl never.
Arguments read_ulong : simpl never.

Lemma be8_length : forall n, length (be8 n) = 8%nat.
Proof. reflexivity. Qed.

Lemma be8_decode_be8 : forall n, n < 2 ^ 64 -> be8_decode (be8 n) = n.
Proof.
  intros n Hn. change (2 ^ 64) with two64 in Hn. unfold two64 in Hn.
  unfold be8, be8_decode. cbn [fold_left].
  replace (n / 65536) with (n / 256 / 256) by (rewrite N.div_div by lia; reflexivity).
  replace (n / 16777216) with (n / 256 / 256 / 256)
    by (rewrite !N.div_div by lia; reflexivity).
  replace (n / 4294967296) with (n / 256 / 256 / 256 / 256)
    by (rewrite !N.div_div by lia; reflexivity).
  replace (n / 1099511627776) with (n / 256 / 256 / 256 / 256 / 256)
    by (rewrite !N.div_div by lia; reflexivity).
  replace (n / 281474976710656) with (n / 256 / 256 / 256 / 256 / 256 / 256)
    by (rewrite !N.div_div by lia; reflexivity).
  replace (n / 72057594037927936) with (n / 256 / 256 / 256 / 256 / 256 / 256 / 256)
    by (rewrite !N.div_div by lia; reflexivity).
  (* the most significant digit is the whole quotient; then 256 * (q / 256) + q mod 256 = q, seven times *)
  rewrite N.mul_0_l, N.add_0_l, N.mod_small
    by (repeat (apply N.div_lt_upper_bound; [discriminate|]); lia).
  rewrite <- !(N.mul_comm 256), <- !N.div_mod'. reflexivity.
Qed.

Lemma u64_ok_lt : forall n, u64_ok n = true -> n < 2 ^ 64.
Proof. intros n H. unfold u64_ok in H. apply N.ltb_lt in H. exact H. Qed.

Lemma read_ulong_spec : forall b,
  read_ulong b = if (length b <? 8)%nat then None else Some (be8_decode (firstn 8 b), skipn 8 b).
Proof. intros b. do 8 (destruct b as [|? b]; [reflexivity|]). reflexivity. Qed.

Lemma read_ulong_None : forall b, read_ulong b = None <-> (length b < 8)%nat.
Proof.
  intros b. rewrite read_ulong_spec.
  destruct (Nat.ltb_spec (length b) 8) as [H|H]; split; intros H'; [exact H|reflexivity|discriminate H'|lia].
Qed.

Lemma read_ulong_be8 : forall n r, n < 2 ^ 64 -> read_ulong (be8 n ++ r) = Some (n, r).
Proof.
  intros n r Hn.
  change (read_ulong (be8 n ++ r)) with (Some (be8_decode (be8 n), r)).
  rewrite (be8_decode_be8 n Hn). reflexivity.
Qed.

(* [parses rd w v]: on any file that starts with the bytes [w] and is cut off after n bytes, the reader fails
   when the cut falls inside [w], and otherwise returns [v] and what is left of the file.  One statement
   for the round trip (n large) and for the rejection of truncated files. *)
Definition parses {A : Type} (rd : bytes -> option (A * bytes)) (w : bytes) (v : A) : Prop :=
  forall n r, rd (firstn n (w ++ r)) =
              if (n <? length w)%nat then None else Some (v, firstn (n - length w) r).

Lemma parses_whole :
  forall (A : Type) rd w (v : A) r, parses rd w v -> rd (w ++ r) = Some (v, r).
Proof.
  intros A rd w v r H. specialize (H (length (w ++ r)) r). rewrite firstn_all, app_length in H.
  rewrite H. destruct (Nat.ltb_spec (length w + length r) (length w)); [lia|].
  rewrite firstn_all2 by lia. reflexivity.
Qed.

Lemma parses_cut :
  forall (A : Type) rd w (v : A) n, parses rd w v -> (n < length w)%nat -> rd (firstn n w) = None.
Proof.
  intros A rd w v n H Hn. specialize (H n []). rewrite app_nil_r in H. rewrite H.
  apply Nat.ltb_lt in Hn. rewrite Hn. reflexivity.
Qed.

(* sequencing: after [rd] has read [w], the rest of the reader [k] goes on m bytes further before it can succeed *)
Lemma parses_then :
  forall (A B : Type) rd (k : A -> bytes -> option B) w (v : A) n rest m (res : option B),
    parses rd w v ->
    ((length w <= n)%nat ->
     k v (firstn (n - length w) rest) = if (n - length w <? m)%nat then None else res) ->
    match rd (firstn n (w ++ rest)) with None => None | Some (x, b) => k x b end =
    if (n <? length w + m)%nat then None else res.
Proof.
  intros A B rd k w v n rest m res H Hk. rewrite (H n rest).
  destruct (Nat.ltb_spec n (length w)) as [Hn|Hn].
  - destruct (Nat.ltb_spec n (length w + m)); [reflexivity|lia].
  - rewrite (Hk Hn).
    destruct (Nat.ltb_spec (n - length w) m), (Nat.ltb_spec n (length w + m)); (reflexivity || lia).
Qed.

Lemma parses_map :
  forall (A B : Type) rd (f : A -> B) w v,
    parses rd w v ->
    parses (fun b => match rd b with None => None | Some (x, r) => Some (f x, r) end) w (f v).
Proof. intros A B rd f w v H n r. rewrite H. destruct (n <? length w)%nat; reflexivity. Qed.

Lemma read_ulong_parses : forall x, x < 2 ^ 64 -> parses read_ulong (be8 x) x.
Proof.
  intros x Hx n r. rewrite be8_length. destruct (Nat.ltb_spec n 8) as [Hn|Hn].
  - apply read_ulong_None. rewrite firstn_length. lia.
  - rewrite firstn_app, be8_length, firstn_all2 by exact Hn. apply read_ulong_be8. exact Hx.
Qed.

Lemma read_bool_parses : forall v, parses read_bool (enc_bool v) v.
Proof.
  intros v [|n] r; [reflexivity|]. cbn [enc_bool app firstn read_bool length Nat.ltb Nat.leb Nat.sub].
  rewrite Nat.sub_0_r. destruct v; reflexivity.
Qed.

(* the test of a length field against the bytes that are left passes unless the cut falls inside the payload *)
Lemma length_guard :
  forall (w r : bytes) n, (blen w <=? blen (firstn n (w ++ r))) = negb (n <? length w)%nat.
Proof.
  intros w r n. unfold blen. rewrite firstn_length, app_length.
  destruct (N.leb_spec (N.of_nat (length w)) (N.of_nat (Nat.min n (length w + length r)))),
           (Nat.ltb_spec n (length w)); (reflexivity || lia).
Qed.

Lemma read_bytes_parses : forall v, blen v < 2 ^ 64 -> parses read_bytes (enc_bytes v) v.
Proof.
  intros v Hv n r. unfold read_bytes, enc_bytes. rewrite <- app_assoc, app_length.
  apply parses_then with (1 := read_ulong_parses _ Hv). intros _. rewrite length_guard.
  destruct (Nat.ltb_spec (n - length (be8 (blen v))) (length v)) as [Hn|Hn]; [reflexivity|]. cbn [negb].
  change (N.to_nat (blen v)) with (N.to_nat (N.of_nat (length v))).
  rewrite Nat2N.id, firstn_firstn, (Nat.min_l _ _ Hn), firstn_app_len, skipn_firstn_comm, skipn_app_len.
  rewrite Nat.sub_add_distr. reflexivity.
Qed.

Lemma bytes_ok_blen : forall v, bytes_ok v = true -> blen v < 2 ^ 64.
Proof.
  intros v H. unfold bytes_ok in H. apply andb_true_iff in H as [_ H].
  apply u64_ok_lt. exact H.
Qed.

Lemma flat_map_be8_length : forall l, length (flat_map be8 l) = (8 * length l)%nat.
Proof.
  induction l as [|x l IH]; [reflexivity|].
  cbn [flat_map]. rewrite app_length, be8_length, IH. cbn [length]. lia.
Qed.

Lemma read_ulongs_parses :
  forall l, forallb u64_ok l = true -> parses (read_ulongs (length l)) (flat_map be8 l) l.
Proof.
  induction l as [|x l IH]; intros Hl n r.
  - cbn. rewrite Nat.sub_0_r. reflexivity.
  - cbn [forallb] in Hl. apply andb_true_iff in Hl as [Hx Hl].
    cbn [flat_map length read_ulongs]. rewrite <- app_assoc, app_length.
    apply parses_then with (1 := read_ulong_parses x (u64_ok_lt _ Hx)). intros _.
    rewrite (IH Hl), Nat.sub_add_distr. destruct (_ <? _)%nat; reflexivity.
Qed.

Lemma read_mechs_parses : forall l, mechs_ok l = true -> parses read_mechs (enc_mechs l) l.
Proof.
  intros l Hl n r. unfold mechs_ok in Hl. apply andb_true_iff in Hl as [Hall Hlen].
  unfold read_mechs, enc_mechs. rewrite <- app_assoc, app_length.
  apply parses_then with (1 := read_ulong_parses _ (u64_ok_lt _ Hlen)). intros _.
  replace (N.of_nat (length l) * 8) with (blen (flat_map be8 l))
    by (unfold blen; rewrite flat_map_be8_length; lia).
  rewrite length_guard, Nat2N.id, (read_ulongs_parses l Hall), Nat.sub_add_distr.
  destruct (_ <? _)%nat; reflexivity.
Qed.

Lemma nodupb_NoDup : forall l, nodupb l = true -> NoDup l.
Proof.
  induction l as [|x l IH]; intros H; [constructor|].
  cbn [nodupb] in H. apply andb_true_iff in H as [Hx Hl].
  constructor; [|exact (IH Hl)].
  intros Hin. apply negb_true_iff, not_true_iff_false in Hx. apply Hx, existsb_exists.
  exists x. split; [exact Hin|apply N.eqb_refl].
Qed.

Lemma read_mapval_parses :
  forall v, wf_mapval v = true ->
    parses (read_mapval (mapval_kind v)) (enc_mapval_payload v) (v, mapval_size v).
Proof.
  intros [b|x|b|l] Hv; cbn [wf_mapval] in Hv.
  - exact (parses_map _ _ _ (fun b => (MBool b, 1)) _ _ (read_bool_parses b)).
  - exact (parses_map _ _ _ (fun x => (MULong x, 8)) _ _ (read_ulong_parses x (u64_ok_lt _ Hv))).
  - exact (parses_map _ _ _ (fun b => (MBytes b, 8 + blen b)) _ _ (read_bytes_parses b (bytes_ok_blen _ Hv))).
  - apply andb_true_iff in Hv as [Hok Hnd].
    pose proof (parses_map _ _ _ (fun l => (MMechs l, 8 + N.of_nat (length (nodup N.eq_dec l)) * 8)) _ _
                           (read_mechs_parses l Hok)) as H.
    cbv beta in H. rewrite (nodup_fixed_point N.eq_dec (nodupb_NoDup _ Hnd)) in H. exact H.
Qed.

Lemma mapval_kind_lt : forall v, mapval_kind v < 2 ^ 64.
Proof. intros [b|x|b|l]; reflexivity. Qed.

(* the entries loop; the fuel is ample as soon as it covers the bytes of the file that are left *)
Lemma read_map_entries_parses :
  forall l, forallb (fun p => u64_ok (fst p) && wf_mapval (snd p)) l = true ->
    forall fuel n r, (length (firstn n (enc_map_entries l ++ r)) <= fuel)%nat ->
      read_map_entries fuel (map_size l) (firstn n (enc_map_entries l ++ r)) =
      if (n <? length (enc_map_entries l))%nat then None
      else Some (l, firstn (n - length (enc_map_entries l)) r).
Proof.
  induction l as [|[k v] l IH]; intros Hl fuel n r Hfuel.
  - destruct fuel; cbn; rewrite Nat.sub_0_r; reflexivity.
  - cbn [forallb fst snd] in Hl. apply andb_true_iff in Hl as [Hkv Hl].
    apply andb_true_iff in Hkv as [Hk Hv].
    change (enc_map_entries ((k, v) :: l))
      with ((be8 k ++ be8 (mapval_kind v) ++ enc_mapval_payload v) ++ enc_map_entries l) in *.
    rewrite <- !app_assoc in *. rewrite !app_length.
    rewrite firstn_length, !app_length, !be8_length in Hfuel.
    cbn [map_size]. remember (8 + 8 + mapval_size v + map_size l) as len eqn:Hlen.
    assert (E0 : (len =? 0) = false) by lia.
    destruct fuel as [|fuel]; cbn [read_map_entries]; rewrite E0.
    { destruct (_ <? _)%nat eqn:E; [reflexivity|]. apply Nat.ltb_ge in E. rewrite !be8_length in E. lia. }
    apply parses_then with (1 := read_ulong_parses k (u64_ok_lt _ Hk)). intros H1.
    destruct (N.ltb_spec len 8); [lia|].
    apply parses_then with (1 := read_ulong_parses _ (mapval_kind_lt v)). intros H2.
    destruct (N.ltb_spec (len - 8) 8); [lia|].
    apply parses_then with (1 := read_mapval_parses v Hv). intros H3.
    destruct (N.ltb_spec (len - 16) (mapval_size v)); [lia|].
    replace (len - 16 - mapval_size v) with (map_size l) by lia.
    rewrite !be8_length in *.
    rewrite (IH Hl) by (rewrite firstn_length, app_length; lia).
    rewrite !Nat.sub_add_distr. destruct (_ <? _)%nat; reflexivity.
Qed.

Lemma read_map_parses : forall l, wf_map l = true -> parses read_map (enc_map l) l.
Proof.
  intros l Hl n r. unfold wf_map in Hl. apply andb_true_iff in Hl as [Hall Hsz].
  unfold read_map, enc_map. rewrite <- app_assoc, app_length.
  apply parses_then with (1 := read_ulong_parses _ (u64_ok_lt _ Hsz)). intros _.
  rewrite (read_map_entries_parses l Hall) by lia. rewrite Nat.sub_add_distr. reflexivity.
Qed.

Lemma read_val_parses :
  forall v, wf_val v = true -> parses (read_val (val_kind v)) (enc_val_payload v) v.
Proof.
  intros [b|x|b|l|l] Hv; cbn [wf_val] in Hv.
  - exact (parses_map _ _ _ CBool _ _ (read_bool_parses b)).
  - exact (parses_map _ _ _ CULong _ _ (read_ulong_parses x (u64_ok_lt _ Hv))).
  - exact (parses_map _ _ _ CBytes _ _ (read_bytes_parses b (bytes_ok_blen _ Hv))).
  - exact (parses_map _ _ _ CMechs _ _ (read_mechs_parses l Hv)).
  - exact (parses_map _ _ _ CMap _ _ (read_map_parses l Hv)).
Qed.

Lemma val_kind_lt : forall v, val_kind v < 2 ^ 64.
Proof. intros [b|n|b|l|l]; reflexivity. Qed.

Lemma encode_attrs_length : forall o, (length o <= length (encode_attrs o))%nat.
Proof.
  induction o as [|p o IH]; [cbn; lia|].
  unfold encode_attrs in *. cbn [flat_map length]. unfold enc_attr at 1.
  rewrite !app_length, be8_length. lia.
Qed.

Lemma encode_attrs_app : forall o1 o2, encode_attrs (o1 ++ o2) = encode_attrs o1 ++ encode_attrs o2.
Proof. intros o1 o2. unfold encode_attrs. apply flat_map_app. Qed.

Lemma decode_attrs_end : forall fuel t, (length t < 8)%nat -> decode_attrs fuel t = Some [].
Proof.
  intros fuel t Ht. apply read_ulong_None in Ht. destruct fuel; cbn [decode_attrs]; rewrite Ht; reflexivity.
Qed.

Lemma decode_attrs_app :
  forall o fuel t, wf_obj o = true -> (length o <= fuel)%nat ->
    decode_attrs fuel (encode_attrs o ++ t) = option_map (app o) (decode_attrs (fuel - length o) t).
Proof.
  induction o as [|[k v] o IH]; intros fuel t Ho Hfuel.
  - cbn [encode_attrs flat_map app length]. rewrite Nat.sub_0_r. destruct (decode_attrs fuel t); reflexivity.
  - destruct fuel as [|fuel]; [cbn [length] in Hfuel; lia|]. cbn [length] in Hfuel.
    unfold wf_obj in Ho. cbn [forallb] in Ho. apply andb_true_iff in Ho as [Hkv Ho].
    apply andb_true_iff in Hkv as [Hk Hv]. cbn [fst snd] in Hk, Hv.
    change (encode_attrs ((k, v) :: o))
      with ((be8 k ++ be8 (val_kind v) ++ enc_val_payload v) ++ encode_attrs o).
    rewrite <- !app_assoc. cbn [length Nat.sub decode_attrs].
    rewrite (read_ulong_be8 _ _ (u64_ok_lt _ Hk)), (read_ulong_be8 _ _ (val_kind_lt v)).
    rewrite (parses_whole _ _ _ _ _ (read_val_parses v Hv)).
    rewrite (IH fuel t Ho) by lia. destruct (decode_attrs (fuel - length o) t); reflexivity.
Qed.

(* a cut at least 8 bytes into an attribute is fatal: its type field is complete, so the loop does not end there *)
Lemma decode_attrs_cut_attr :
  forall p fuel n, wf_attr p = true -> (8 <= n < length (enc_attr p))%nat ->
    decode_attrs fuel (firstn n (enc_attr p)) = None.
Proof.
  intros [k v] fuel n Hp [Hn8 Hn].
  apply andb_true_iff in Hp as [Hk Hv]. cbn [fst snd] in Hk, Hv.
  unfold enc_attr in *. cbn [fst snd] in *. rewrite !app_length, !be8_length in Hn.
  assert (Hr : read_ulong (firstn n (be8 k ++ be8 (val_kind v) ++ enc_val_payload v))
               = Some (k, firstn (n - 8) (be8 (val_kind v) ++ enc_val_payload v))).
  { rewrite (read_ulong_parses k (u64_ok_lt _ Hk)).
    destruct (Nat.ltb_spec n (length (be8 k))) as [H|H]; [rewrite be8_length in H; lia|reflexivity]. }
  destruct fuel as [|fuel]; cbn [decode_attrs]; rewrite Hr; [reflexivity|].
  rewrite (read_ulong_parses _ (val_kind_lt v)).
  destruct (Nat.ltb_spec (n - 8) (length (be8 (val_kind v)))) as [H|H]; [reflexivity|].
  rewrite be8_length in *. rewrite (parses_cut _ _ _ _ _ (read_val_parses v Hv)) by lia. reflexivity.
Qed.

Lemma decode_obj_app :
  forall gen o t, gen < 2 ^ 64 -> wf_obj o = true ->
    exists fuel,
      decode_obj (encode_obj gen o ++ t) = option_map (fun o' => (gen, o ++ o')) (decode_attrs fuel t).
Proof.
  intros gen o t Hgen Ho. exists (length (encode_attrs o ++ t) - length o)%nat.
  unfold decode_obj, refresh_file, encode_obj. rewrite <- app_assoc, (read_ulong_be8 _ _ Hgen).
  rewrite (decode_attrs_app o _ t Ho) by (rewrite app_length; pose proof (encode_attrs_length o); lia).
  destruct (decode_attrs _ t); reflexivity.
Qed.

(* slightly more than the round trip: up to 7 stray bytes after the encoding are ignored *)
Lemma decode_encode_junk :
  forall gen o t, gen < 2 ^ 64 -> wf_obj o = true -> (length t < 8)%nat ->
    decode_obj (encode_obj gen o ++ t) = Some (gen, o).
Proof.
  intros gen o t Hgen Ho Ht. destruct (decode_obj_app gen o t Hgen Ho) as [fuel ->].
  rewrite (decode_attrs_end fuel t Ht). cbn [option_map]. rewrite app_nil_r. reflexivity.
Qed.

Theorem decode_encode :
  forall gen o, gen < 2 ^ 64 -> wf_obj o = true ->
    decode_obj (encode_obj gen o) = Some (gen, o).
Proof.
  intros gen o Hgen Ho.
  rewrite <- (app_nil_r (encode_obj gen o)).
  apply decode_encode_junk; [exact Hgen|exact Ho|cbn; lia].
Qed.

Lemma refresh_file_short :
  forall b, (length b < 8)%nat ->
    refresh_file b = match b with [] => RUnchanged | _ :: _ => RValid None [] end.
Proof.
  intros b Hb. unfold refresh_file. rewrite (proj2 (read_ulong_None b) Hb). reflexivity.
Qed.

(* None means: the C++ invalidates the object, or the file is shorter than 8 bytes (where the C++
   keeps the object valid but reads no generation number). *)
Lemma decode_obj_None :
  forall b, decode_obj b = None <-> refresh_file b = RInvalid \/ (length b < 8)%nat.
Proof.
  intros b. unfold decode_obj. split.
  - intros H. destruct b as [|x b]; [right; cbn; lia|].
    unfold refresh_file in *.
    destruct (read_ulong (x :: b)) as [[g r]|] eqn:Hg.
    + destruct (decode_attrs (length r) r) as [o|]; [discriminate H|left; reflexivity].
    + right. apply read_ulong_None. exact Hg.
  - intros [H|H].
    + rewrite H. reflexivity.
    + rewrite (refresh_file_short b H). destruct b; reflexivity.
Qed.

Lemma wf_obj_firstn : forall k o, wf_obj o = true -> wf_obj (firstn k o) = true.
Proof.
  intros k o Ho. rewrite <- (firstn_skipn k o) in Ho. unfold wf_obj in *.
  rewrite forallb_app in Ho. apply andb_true_iff in Ho. apply Ho.
Qed.

Lemma encode_obj_split :
  forall gen o k,
    encode_obj gen o = encode_obj gen (firstn k o) ++ encode_attrs (skipn k o).
Proof.
  intros gen o k. unfold encode_obj.
  rewrite <- app_assoc, <- encode_attrs_app, firstn_skipn. reflexivity.
Qed.

(* The real reader does not only accept the cuts exactly at an attribute boundary: a cut up to
   7 bytes past the boundary (inside the next attribute's type field) gives the same result,
   because the short read of the attribute type happens at EOF and ends the loop.
   j = 0 is the statement "truncated exactly at an attribute boundary". *)
Theorem decode_prefix_attr :
  forall gen o k j, gen < 2 ^ 64 -> wf_obj o = true -> (j < 8)%nat ->
    decode_obj (firstn (length (encode_obj gen (firstn k o)) + j) (encode_obj gen o))
    = Some (gen, firstn k o).
Proof.
  intros gen o k j Hgen Ho Hj.
  rewrite (encode_obj_split gen o k), firstn_app_2.
  apply decode_encode_junk; [exact Hgen|apply wf_obj_firstn; exact Ho|].
  pose proof (firstn_le_length j (encode_attrs (skipn k o))). lia.
Qed.

(* A cut n bytes into the k-th attribute, 8 <= n < its length: the object is invalid. *)
Theorem decode_prefix_reject :
  forall gen o k p n, gen < 2 ^ 64 -> wf_obj o = true ->
    nth_error o k = Some p -> (8 <= n < length (enc_attr p))%nat ->
    decode_obj (firstn (length (encode_obj gen (firstn k o)) + n) (encode_obj gen o)) = None.
Proof.
  intros gen o k p n Hgen Ho Hp Hn.
  destruct (nth_error_split o k Hp) as (o1 & o2 & -> & <-). rewrite firstn_app_len.
  unfold wf_obj in Ho. rewrite forallb_app in Ho. apply andb_true_iff in Ho as [Ho1 Ho2].
  cbn [forallb] in Ho2. apply andb_true_iff in Ho2 as [Hwp _].
  replace (encode_obj gen (o1 ++ p :: o2)) with (encode_obj gen o1 ++ enc_attr p ++ encode_attrs o2)
    by (unfold encode_obj; rewrite encode_attrs_app, <- app_assoc; reflexivity).
  rewrite firstn_app_2, firstn_app. replace (n - length (enc_attr p))%nat with 0%nat by lia.
  rewrite firstn_O, app_nil_r.
  destruct (decode_obj_app gen o1 (firstn n (enc_attr p)) Hgen Ho1) as [fuel ->].
  rewrite (decode_attrs_cut_attr p fuel n Hwp Hn). reflexivity.
Qed.

(* [encode_obj] writes list order, the C++ writer iterates std::map / std::set, i.e. ascending
   order; and the C++ reader stores what it reads in such containers.  On a canonical object
   ([canon_obj]: strictly ascending at every level) the two agree: the in-memory view
   [view_obj] of the decoded list is the list itself. *)
(* The three container insertions rebuild a list that is already in container order: putting an element in front
   of a list whose first element is larger is a cons. *)
Lemma fold_right_cons_id :
  forall (X : Type) (f : X -> list X -> list X) (ok : list X -> Prop),
    (forall x l, ok (x :: l) -> ok l /\ f x l = x :: l) ->
    forall l, ok l -> fold_right f [] l = l.
Proof.
  intros X f ok Hf. induction l as [|x l IH]; intros H; [reflexivity|].
  destruct (Hf x l H) as [Hl Hx]. cbn [fold_right]. rewrite (IH Hl). exact Hx.
Qed.

Lemma norm_last_canon :
  forall (A : Type) (l : list (N * A)), keys_ascending l = true -> norm_last l = l.
Proof.
  intros A. apply fold_right_cons_id with (ok := fun l => keys_ascending l = true).
  intros [k v] [|[k' v'] l] H; [split; reflexivity|].
  cbn [keys_ascending] in H. apply andb_true_iff in H as [Hk H].
  split; [exact H|]. cbn [ins_keep fst snd]. rewrite Hk. reflexivity.
Qed.

Lemma norm_first_canon :
  forall (A : Type) (l : list (N * A)), keys_ascending l = true -> norm_first l = l.
Proof.
  intros A. apply fold_right_cons_id with (ok := fun l => keys_ascending l = true).
  intros [k v] [|[k' v'] l] H; [split; reflexivity|].
  cbn [keys_ascending] in H. apply andb_true_iff in H as [Hk H].
  split; [exact H|]. cbn [ins_over fst snd]. rewrite Hk. reflexivity.
Qed.

Lemma norm_set_canon : forall l, ascending l = true -> norm_set l = l.
Proof.
  apply fold_right_cons_id with (ok := fun l => ascending l = true).
  intros x [|y l] H; [split; reflexivity|].
  cbn [ascending] in H. apply andb_true_iff in H as [Hx H].
  split; [exact H|]. cbn [set_ins]. rewrite Hx. reflexivity.
Qed.

Lemma view_mapval_canon : forall v, canon_mapval v = true -> view_mapval v = v.
Proof.
  intros [b|n|b|l] H; try reflexivity.
  cbn [canon_mapval] in H. cbn [view_mapval]. rewrite (norm_set_canon l H). reflexivity.
Qed.

Lemma map_snd_canon :
  forall (A : Type) (c : A -> bool) (f : A -> A), (forall v, c v = true -> f v = v) ->
    forall l : list (N * A),
      forallb (fun p => c (snd p)) l = true -> map (fun p => (fst p, f (snd p))) l = l.
Proof.
  intros A c f Hf. induction l as [|[k v] l IH]; intros H; [reflexivity|].
  cbn [forallb snd] in H. apply andb_true_iff in H as [Hv Hl].
  cbn [map fst snd]. rewrite (Hf v Hv), (IH Hl). reflexivity.
Qed.

Lemma view_val_canon : forall v, canon_val v = true -> view_val v = v.
Proof.
  intros [b|n|b|l|l] H; try reflexivity; cbn [canon_val] in H; cbn [view_val].
  - rewrite (norm_set_canon l H). reflexivity.
  - apply andb_true_iff in H as [Hk Hl].
    rewrite (map_snd_canon _ _ _ view_mapval_canon l Hl), (norm_first_canon _ l Hk). reflexivity.
Qed.

Lemma view_obj_canon : forall o, canon_obj o = true -> view_obj o = o.
Proof.
  intros o H. unfold canon_obj in H. apply andb_true_iff in H as [Hk Hv].
  unfold view_obj.
  rewrite (map_snd_canon _ _ _ view_val_canon o Hv). apply norm_last_canon. exact Hk.
Qed.

(* What ObjectFile holds after writeAttributes followed by refresh. *)
Theorem decode_encode_view :
  forall gen o, gen < 2 ^ 64 -> wf_obj o = true -> canon_obj o = true ->
    match decode_obj (encode_obj gen o) with
    | Some (g, o') => Some (g, view_obj o')
    | None => None
    end = Some (gen, o).
Proof.
  intros gen o Hgen Ho Hc.
  rewrite (decode_encode gen o Hgen Ho), (view_obj_canon o Hc). reflexivity.
Qed.

(* One attribute of every kind; 0x40000211 = CKA_WRAP_TEMPLATE, 0x40000600 = CKA_ALLOWED_MECHANISMS. *)
Definition ex_obj : cobj :=
  [ (0, CULong 3);
    (1, CBool true);
    (3, CBytes [97; 98; 99]);
    (1073742353, CMap [ (1, MBool false); (3, MBytes [1; 2]); (256, MULong 31);
                        (1073743360, MMechs [1; 4231]) ]);
    (1073743360, CMechs [1; 4231]) ].

Example ex_obj_wf : (wf_obj ex_obj, canon_obj ex_obj) = (true, true).
Proof. vm_compute. reflexivity. Qed.

Example ex_roundtrip : decode_obj (encode_obj 7 ex_obj) = Some (7, ex_obj).
Proof. vm_compute. reflexivity. Qed.

(* the first 40 of the 247 bytes: generation 7; attribute type 0 (CKA_CLASS), kind 2 = ULONG_ATTR, value 3;
   attribute type 1 (CKA_TOKEN), of which kind 1 and the byte 255 follow *)
Example ex_first40 :
  firstn 40 (encode_obj 7 ex_obj) =
  [0; 0; 0; 0; 0; 0; 0; 7;  0; 0; 0; 0; 0; 0; 0; 0;  0; 0; 0; 0; 0; 0; 0; 2;
   0; 0; 0; 0; 0; 0; 0; 3;  0; 0; 0; 0; 0; 0; 0; 1].
Proof. vm_compute. reflexivity. Qed.

(* the nested map: ... type 0x40000211, kind 4, len 107 = 17 + 26 + 24 + 40, then the entries *)
Example ex_map_bytes :
  firstn 41 (skipn 76 (encode_obj 7 ex_obj)) =
  [0; 0; 0; 0; 64; 0; 2; 17;  0; 0; 0; 0; 0; 0; 0; 4;  0; 0; 0; 0; 0; 0; 0; 107;
   0; 0; 0; 0; 0; 0; 0; 1;  0; 0; 0; 0; 0; 0; 0; 1;  0].
Proof. vm_compute. reflexivity. Qed.

(* which prefixes of the 247-byte encoding are accepted, and with how many attributes:
   cuts 8..15 -> 0 attributes, 32..39 -> 1, 49..56 -> 2, 76..83 -> 3, 207..214 -> 4, 247 -> 5,
   every other cut >= 8 is rejected (cuts < 8: see [refresh_file_short]). *)
Example ex_prefixes :
  map (fun n => match decode_obj (firstn n (encode_obj 7 ex_obj)) with
                | Some (_, o) => Some (length o) | None => None end)
      [7; 8; 15; 16; 31; 32; 39; 40; 48; 49; 56; 57; 75; 76; 83; 84; 206; 207; 214; 215; 246; 247]%nat
  = [None; Some 0; Some 0; None; None; Some 1; Some 1; None; None; Some 2; Some 2; None; None;
     Some 3; Some 3; None; None; Some 4; Some 4; None; None; Some 5]%nat.
Proof. vm_compute. reflexivity. Qed.

(* file order vs. container view: a repeated top-level type (last wins), a repeated key in a map
   (first wins), an unsorted mechanism list with a duplicate *)
Example ex_view :
  view_obj [ (5, CULong 1); (2, CMechs [9; 4; 9]); (5, CULong 2);
             (7, CMap [ (3, MBool true); (1, MULong 0); (3, MBool false) ]) ]
  = [ (2, CMechs [4; 9]); (5, CULong 2); (7, CMap [ (1, MULong 0); (3, MBool true) ]) ].
Proof. vm_compute. reflexivity. Qed.

(* A duplicate inside a NESTED mechanism set breaks the reader's length accounting (it subtracts
   8 + 8 * |std::set|, the writer of such a list would have counted every element): rejected. *)
Example ex_nested_dup_rejected :
  decode_obj (encode_obj 1 [ (7, CMap [ (3, MMechs [9; 9]) ]) ]) = None.
Proof. vm_compute. reflexivity. Qed.

(* An object file written by the REAL library (libsofthsm2.so built from /repo, file backend):
   C_GenerateKey(CKM_AES_KEY_GEN) of a token object with CKA_WRAP_TEMPLATE = {CKA_CLASS,
   CKA_KEY_TYPE, CKA_EXTRACTABLE, CKA_LABEL} and CKA_ALLOWED_MECHANISMS = {CKM_AES_CBC,
   CKM_AES_ECB, CKM_AES_KEY_WRAP}; 777 bytes, 32 attributes.  The decoder accepts it, the result
   is well formed and canonical, and the encoder reproduces the file byte for byte. *)
Definition real_file : bytes :=
  [
    0; 0; 0; 0; 0; 0; 0; 35; 0; 0; 0; 0; 0; 0; 0; 0; 0; 0; 0; 0; 0; 0; 0; 2; 0; 0; 0; 0; 0; 0;
    0; 4; 0; 0; 0; 0; 0; 0; 0; 1; 0; 0; 0; 0; 0; 0; 0; 1; 255; 0; 0; 0; 0; 0; 0; 0; 2; 0; 0; 0;
    0; 0; 0; 0; 1; 0; 0; 0; 0; 0; 0; 0; 0; 3; 0; 0; 0; 0; 0; 0; 0; 3; 0; 0; 0; 0; 0; 0; 0; 0; 0;
    0; 0; 0; 0; 0; 0; 17; 0; 0; 0; 0; 0; 0; 0; 3; 0; 0; 0; 0; 0; 0; 0; 16; 38; 179; 73; 227; 48;
    70; 235; 116; 120; 184; 246; 28; 167; 161; 122; 231; 0; 0; 0; 0; 0; 0; 0; 134; 0; 0; 0; 0;
    0; 0; 0; 1; 0; 0; 0; 0; 0; 0; 0; 0; 144; 0; 0; 0; 0; 0; 0; 0; 3; 0; 0; 0; 0; 0; 0; 0; 3; 89;
    62; 75; 0; 0; 0; 0; 0; 0; 1; 0; 0; 0; 0; 0; 0; 0; 0; 2; 0; 0; 0; 0; 0; 0; 0; 31; 0; 0; 0; 0;
    0; 0; 1; 2; 0; 0; 0; 0; 0; 0; 0; 3; 0; 0; 0; 0; 0; 0; 0; 0; 0; 0; 0; 0; 0; 0; 1; 3; 0; 0; 0;
    0; 0; 0; 0; 1; 0; 0; 0; 0; 0; 0; 0; 1; 4; 0; 0; 0; 0; 0; 0; 0; 1; 255; 0; 0; 0; 0; 0; 0; 1;
    5; 0; 0; 0; 0; 0; 0; 0; 1; 255; 0; 0; 0; 0; 0; 0; 1; 6; 0; 0; 0; 0; 0; 0; 0; 1; 255; 0; 0;
    0; 0; 0; 0; 1; 7; 0; 0; 0; 0; 0; 0; 0; 1; 255; 0; 0; 0; 0; 0; 0; 1; 8; 0; 0; 0; 0; 0; 0; 0;
    1; 255; 0; 0; 0; 0; 0; 0; 1; 10; 0; 0; 0; 0; 0; 0; 0; 1; 255; 0; 0; 0; 0; 0; 0; 1; 12; 0; 0;
    0; 0; 0; 0; 0; 1; 0; 0; 0; 0; 0; 0; 0; 1; 16; 0; 0; 0; 0; 0; 0; 0; 3; 0; 0; 0; 0; 0; 0; 0;
    0; 0; 0; 0; 0; 0; 0; 1; 17; 0; 0; 0; 0; 0; 0; 0; 3; 0; 0; 0; 0; 0; 0; 0; 0; 0; 0; 0; 0; 0;
    0; 1; 97; 0; 0; 0; 0; 0; 0; 0; 2; 0; 0; 0; 0; 0; 0; 0; 16; 0; 0; 0; 0; 0; 0; 1; 98; 0; 0; 0;
    0; 0; 0; 0; 1; 0; 0; 0; 0; 0; 0; 0; 1; 99; 0; 0; 0; 0; 0; 0; 0; 1; 255; 0; 0; 0; 0; 0; 0; 1;
    100; 0; 0; 0; 0; 0; 0; 0; 1; 255; 0; 0; 0; 0; 0; 0; 1; 101; 0; 0; 0; 0; 0; 0; 0; 1; 0; 0; 0;
    0; 0; 0; 0; 1; 102; 0; 0; 0; 0; 0; 0; 0; 2; 0; 0; 0; 0; 0; 0; 16; 128; 0; 0; 0; 0; 0; 0; 1;
    112; 0; 0; 0; 0; 0; 0; 0; 1; 255; 0; 0; 0; 0; 0; 0; 1; 113; 0; 0; 0; 0; 0; 0; 0; 1; 255; 0;
    0; 0; 0; 0; 0; 1; 114; 0; 0; 0; 0; 0; 0; 0; 1; 255; 0; 0; 0; 0; 0; 0; 2; 16; 0; 0; 0; 0; 0;
    0; 0; 1; 0; 0; 0; 0; 0; 64; 0; 2; 17; 0; 0; 0; 0; 0; 0; 0; 4; 0; 0; 0; 0; 0; 0; 0; 91; 0; 0;
    0; 0; 0; 0; 0; 0; 0; 0; 0; 0; 0; 0; 0; 2; 0; 0; 0; 0; 0; 0; 0; 4; 0; 0; 0; 0; 0; 0; 0; 3; 0;
    0; 0; 0; 0; 0; 0; 3; 0; 0; 0; 0; 0; 0; 0; 2; 119; 107; 0; 0; 0; 0; 0; 0; 1; 0; 0; 0; 0; 0;
    0; 0; 0; 2; 0; 0; 0; 0; 0; 0; 0; 31; 0; 0; 0; 0; 0; 0; 1; 98; 0; 0; 0; 0; 0; 0; 0; 1; 0; 0;
    0; 0; 0; 64; 0; 2; 18; 0; 0; 0; 0; 0; 0; 0; 4; 0; 0; 0; 0; 0; 0; 0; 0; 0; 0; 0; 0; 64; 0; 6;
    0; 0; 0; 0; 0; 0; 0; 0; 5; 0; 0; 0; 0; 0; 0; 0; 3; 0; 0; 0; 0; 0; 0; 16; 129; 0; 0; 0; 0; 0;
    0; 16; 130; 0; 0; 0; 0; 0; 0; 33; 9
  ].

Example real_file_decodes :
  match decode_obj real_file with
  | Some (g, o) =>
      (g, length o, wf_obj o, canon_obj o, bytes_eqb (encode_obj g o) real_file,
       filter (fun p => match snd p with CMap _ | CMechs _ => true | _ => false end) o)
  | None => (0, 0%nat, false, false, false, [])
  end
  = (35, 32%nat, true, true, true,
     [ (1073742353, CMap [ (0, MULong 4); (3, MBytes [119; 107]); (256, MULong 31);
                           (354, MBool false) ]);
       (1073742354, CMap []);
       (1073743360, CMechs [4225; 4226; 8457]) ]).
Proof. vm_compute. reflexivity. Qed.

Print Assumptions be8_length.
Print Assumptions be8_decode_be8.
Print Assumptions decode_encode.
Print Assumptions decode_encode_junk.
Print Assumptions decode_obj_None.
Print Assumptions decode_prefix_attr.
Print Assumptions decode_prefix_reject.
Print Assumptions view_obj_canon.
Print Assumptions decode_encode_view.
Print Assumptions ex_roundtrip.
Print Assumptions real_file_decodes.
